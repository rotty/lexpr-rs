(* The side-by-side judgements closed at the entry points. Each of them holds
   "unless the run exhausts its fuel" or panics; C03's totality (FloatFuel) and
   the no-panic theorem (DepthProofs) remove the exceptions for from_trait,
   datum::from_trait and the iterators. In turn: a byte slice against a stream
   of the same bytes (CrossProofs; C06, C11), the irrelevance of the fuel once
   it suffices (FuelMono; C03), interleaved Interrupted results
   (InterruptProofs), a &str against the slice of its bytes (StrSliceProofs),
   a stream that fails after a prefix (IoFailProofs), and a truncated input
   (TruncProofs; C19). Each part imports the file it closes
   where it begins: StrSliceProofs and IoFailProofs name their judgements alike. *)
From Coq Require Import SpecFloat Lia.
Require Import Base Value Float PrintOptions ParseOptions Utf8 Reader Scan Num NumberOps Parser.
Require Import DepthProofs FuelProofs FloatFuel CrossProofs.

Definition same_outcome {A} (x1 x2 : pres A) : Prop :=
  match x1, x2 with
  | POk a, POk b => a = b
  | PErr (XErr (ESyntax c1 _ _)), PErr (XErr (ESyntax c2 _ _)) => c1 = c2
  | PErr (XErr (EIo a)), PErr (XErr (EIo b)) => a = b
  | _, _ => False
  end.

Lemma rpres_same {A} (x1 x2 : pres A) : rpres eq x1 x2 -> no_panic x2 -> same_outcome x1 x2.
Proof.
  destruct x1 as [a|[e1|k1]]; destruct x2 as [b|[e2|k2]]; cbn [rpres same_outcome]; try contradiction; intros H Hn.
  - exact H.
  - destruct e1; destruct e2; cbn [rerr] in H; try contradiction; exact H.
  - exfalso. apply (Hn k2). reflexivity.
Qed.

Lemma from_trait_no_panic ro alpha fast std_parse k inp :
  no_panic (from_trait ro alpha fast std_parse k inp) /\
  no_panic (datum_from_trait ro alpha fast std_parse k inp).
Proof.
  unfold from_trait, datum_from_trait. split.
  - apply (good_bind _ _ (good_expect_value ro alpha fast std_parse _)); [|apply init_depth_ok].
    intros v. apply good_bind; [apply good_liftR|intros; apply good_pret].
  - apply (good_bind _ _ (good_expect_datum ro alpha fast std_parse _)); [|apply init_depth_ok].
    intros v. apply good_bind; [apply good_liftR|intros; apply good_pret].
Qed.

Section Agree.
  Variable ro : parse_options.
  Variable alpha : N -> bool.
  Variable fast : bool.
  Variable std_parse : N -> Z -> f64.

  Theorem slice_stream_agree (s : bytes) :
    same_outcome (from_trait ro alpha fast std_parse SrcSlice (bytes_events s)) (from_trait ro alpha fast std_parse SrcIo (bytes_events s)).
  Proof.
    destruct (from_trait_cross ro alpha fast std_parse s) as [E|H].
    - exfalso. exact (proj1 (total_from_trait ro alpha fast std_parse SrcIo (bytes_events s)) E).
    - apply rpres_same; [exact H|]. apply (proj1 (from_trait_no_panic ro alpha fast std_parse SrcIo (bytes_events s))).
  Qed.
  Theorem slice_stream_agree_datum (s : bytes) :
    same_outcome (datum_from_trait ro alpha fast std_parse SrcSlice (bytes_events s)) (datum_from_trait ro alpha fast std_parse SrcIo (bytes_events s)).
  Proof.
    destruct (datum_from_trait_cross ro alpha fast std_parse s) as [E|H].
    - exfalso. exact (proj2 (total_from_trait ro alpha fast std_parse SrcIo (bytes_events s)) E).
    - apply rpres_same; [exact H|]. apply (proj2 (from_trait_no_panic ro alpha fast std_parse SrcIo (bytes_events s))).
  Qed.
End Agree.

Require Import FuelMono.
Section Irrelevant.
  Variable ro : parse_options.
  Variable alpha : N -> bool.
  Variable fast : bool.
  Variable std_parse : N -> Z -> f64.
  Let Hfp := f64_from_parts_ok fast std_parse.

  (* from_trait / datum::from_trait with an explicit step budget *)
  Definition from_trait_fuel (fuel : nat) (k : src_kind) (inp : list event) : pres value :=
    fst (pbind (expect_value ro alpha fast std_parse fuel) (fun v => pbind (expect_end_p fuel) (fun _ => pret v)) (init_state k inp)).
  Definition datum_from_trait_fuel (fuel : nat) (k : src_kind) (inp : list event) : pres datum :=
    fst (pbind (expect_datum ro alpha fast std_parse fuel) (fun v => pbind (expect_end_p fuel) (fun _ => pret v)) (init_state k inp)).

  Lemma peq_expect_end n fi fs : (S n < fi)%nat -> (fi <= fs)%nat -> peq n (expect_end_p fi) (expect_end_p fs).
  Proof.
    intros Hn Hf. unfold expect_end_p. apply peq_liftR; [apply ok_expect_end; exact Hn|apply um_expect_end; exact Hf].
  Qed.

  Theorem every_call_fuel_irrelevant fi fs n s : (2 * n + 3 <= fi)%nat -> (fi <= fs)%nat -> (rem (rd s) <= n)%nat ->
    next_value ro alpha fast std_parse fi s = next_value ro alpha fast std_parse fs s /\
    next_datum ro alpha fast std_parse fi s = next_datum ro alpha fast std_parse fs s.
  Proof.
    intros Hn Hf Hs. split.
    - apply (proj1 (mono_values ro alpha fast std_parse Hfp fi fs Hf) n Hn s Hs).
    - apply (proj1 (mono_datums ro alpha fast std_parse Hfp fi fs Hf) n Hn s Hs).
  Qed.

  Theorem from_trait_fuel_irrelevant fuel k inp : (fuel_for inp <= fuel)%nat ->
    from_trait_fuel fuel k inp = from_trait ro alpha fast std_parse k inp /\
    datum_from_trait_fuel fuel k inp = datum_from_trait ro alpha fast std_parse k inp.
  Proof.
    intros Hf. unfold from_trait_fuel, datum_from_trait_fuel, from_trait, datum_from_trait. cbv zeta.
    destruct (fuel_for_enough inp) as [Hn Hn2].
    pose proof (init_rem k inp) as Hr.
    split; symmetry; f_equal.
    - refine (peq_bind (length inp) _ _ _ _ _ _ _ (init_state k inp) Hr).
      + apply pmono_pok. apply (pok_expect_value ro alpha fast std_parse Hfp); exact Hn.
      + unfold expect_value. apply peq_bind.
        * intros s Hs. apply (proj1 (proj1 (fuel_values ro alpha fast std_parse Hfp _) _ Hn s Hs)).
        * apply (proj1 (mono_values ro alpha fast std_parse Hfp _ _ Hf)). exact Hn.
        * intros o. apply peq_refl.
      + intros v. apply peq_bind; [apply pmono_pok; apply pok_expect_end; exact Hn2|apply peq_expect_end; assumption|intros; apply peq_refl].
    - refine (peq_bind (length inp) _ _ _ _ _ _ _ (init_state k inp) Hr).
      + apply pmono_pok. apply (pok_expect_datum ro alpha fast std_parse Hfp); exact Hn.
      + unfold expect_datum. apply peq_bind.
        * intros s Hs. apply (proj1 (proj1 (fuel_datums ro alpha fast std_parse Hfp _) _ Hn s Hs)).
        * apply (proj1 (mono_datums ro alpha fast std_parse Hfp _ _ Hf)). exact Hn.
        * intros o. apply peq_refl.
      + intros v. apply peq_bind; [apply pmono_pok; apply pok_expect_end; exact Hn2|apply peq_expect_end; assumption|intros; apply peq_refl].
  Qed.
End Irrelevant.

Require Import InterruptProofs.
Lemma strip_length l : (length (strip l) <= length l)%nat.
Proof. induction l as [|[b| |e] l IH]; cbn [strip length]; lia. Qed.
Lemma strip_bytes (s : bytes) : strip (bytes_events s) = bytes_events s.
Proof. induction s as [|b s IH]; cbn [bytes_events map strip]; [reflexivity|]. unfold bytes_events in IH. rewrite IH. reflexivity. Qed.

Theorem slice_stream_interrupts_agree ro alpha fast std_parse (s : bytes) (inp : list event) :
  strip inp = bytes_events s ->
  same_outcome (from_trait ro alpha fast std_parse SrcSlice (bytes_events s)) (from_trait ro alpha fast std_parse SrcIo inp).
Proof.
  intros Hst.
  assert (E : from_trait ro alpha fast std_parse SrcIo inp = from_trait ro alpha fast std_parse SrcIo (bytes_events s)).
  { rewrite (from_trait_is ro alpha fast std_parse inp SrcIo).
    rewrite (from_trait_interrupts ro alpha fast std_parse (fuel_for inp) inp (bytes_events s) ltac:(rewrite strip_bytes; exact Hst)).
    change (from_trait_with ro alpha fast std_parse (fuel_for inp) SrcIo (bytes_events s))
      with (from_trait_fuel ro alpha fast std_parse (fuel_for inp) SrcIo (bytes_events s)).
    apply (proj1 (from_trait_fuel_irrelevant ro alpha fast std_parse (fuel_for inp) SrcIo (bytes_events s)
                    ltac:(unfold fuel_for; pose proof (strip_length inp) as H; rewrite Hst in H; lia))). }
  rewrite E. apply slice_stream_agree.
Qed.

Section IterateAgree.
  Variable ro : parse_options.
  Variable alpha : N -> bool.
  Variable fast : bool.
  Variable std_parse : N -> Z -> f64.

  Lemma iterate_values_cross fuel n : forall s1 s2, CrossProofs.prel s1 s2 ->
    Exists (fun r => r = PErr (XErr EFuel)) (iterate_values ro alpha fast std_parse fuel n s2) \/
    Forall2 (rpres eq) (iterate_values ro alpha fast std_parse fuel n s1) (iterate_values ro alpha fast std_parse fuel n s2).
  Proof.
    induction n as [|n IH]; intros s1 s2 H; cbn [iterate_values]; [right; constructor|].
    destruct (proj1 (cross_values ro alpha fast std_parse fuel) s1 s2 H) as [E|[E Hr]].
    - left. destruct (next_value ro alpha fast std_parse fuel s2) as [[o|e] s2']; cbn [fst] in E; [discriminate|]. inversion E.
      constructor. reflexivity.
    - destruct (next_value ro alpha fast std_parse fuel s1) as [[[v1|]|[e1|k1]] s1']; destruct (next_value ro alpha fast std_parse fuel s2) as [[[v2|]|[e2|k2]] s2'];
        cbn [fst snd rpres] in *; try contradiction; try discriminate E.
      + inversion E; subst v2. destruct (IH s1' s2' Hr) as [Hx|Hf]; [left; constructor 2; exact Hx|right; constructor; [reflexivity|exact Hf]].
      + right. constructor.
      + destruct (IH s1' s2' Hr) as [Hx|Hf]; [left; constructor 2; exact Hx|right; constructor; [exact E|exact Hf]].
      + destruct (IH s1' s2' Hr) as [Hx|Hf]; [left; constructor 2; exact Hx|right; constructor; [exact E|exact Hf]].
  Qed.

  Theorem iterate_slice_stream (s : bytes) n :
    Forall2 (rpres eq) (iterate_values ro alpha fast std_parse (fuel_for (bytes_events s)) n (init_state SrcSlice (bytes_events s)))
                       (iterate_values ro alpha fast std_parse (fuel_for (bytes_events s)) n (init_state SrcIo (bytes_events s))).
  Proof.
    destruct (iterate_values_cross (fuel_for (bytes_events s)) n _ _ (init_prel s)) as [Hx|Hf]; [|exact Hf].
    exfalso. pose proof (proj1 (total_iterate ro alpha fast std_parse SrcIo (bytes_events s) n)) as Ht.
    apply Exists_exists in Hx. destruct Hx as (x & Hin & ->). rewrite Forall_forall in Ht. exact (Ht _ Hin eq_refl).
  Qed.
End IterateAgree.

Require Import StrSliceProofs.
Section StrAgree.
  Variable ro : parse_options.
  Variable alpha : N -> bool.
  Variable fast : bool.
  Variable std_parse : N -> Z -> f64.

  Definition utf8_rejected {A} (x : pres A) : Prop :=
    exists l c, x = PErr (XErr (ESyntax InvalidUnicodeCodePoint l c)).

  Lemma pesc_rejected {A} (x : pres A) : pesc x -> x <> PErr (XErr EFuel) -> no_panic x -> utf8_rejected x.
  Proof.
    destruct x as [a|[e|k]]; cbn [pesc]; intros H Hf Hp; try contradiction.
    - destruct e as [c l cl|io|]; cbn [pesc] in H; try contradiction.
      destruct c; cbn [pesc] in H; try contradiction. exists l, cl. reflexivity.
    - exfalso. apply (Hp k). reflexivity.
  Qed.

  (* whatever the bytes: either the slice parse rejects them as ill-formed
     UTF-8, or the str parse returns exactly what the slice parse returns *)
  Theorem str_slice_agree (inp : list event) :
    utf8_rejected (from_trait ro alpha fast std_parse SrcSlice inp) \/
    from_trait ro alpha fast std_parse SrcStr inp = from_trait ro alpha fast std_parse SrcSlice inp.
  Proof.
    destruct (from_trait_str_slice ro alpha fast std_parse inp) as [E|[E|E]].
    - left. apply pesc_rejected; [exact E| |].
      + apply (proj1 (total_from_trait ro alpha fast std_parse SrcSlice inp)).
      + apply (proj1 (from_trait_no_panic ro alpha fast std_parse SrcSlice inp)).
    - exfalso. exact (proj1 (total_from_trait ro alpha fast std_parse SrcStr inp) E).
    - right. exact E.
  Qed.
  Theorem str_slice_agree_datum (inp : list event) :
    utf8_rejected (datum_from_trait ro alpha fast std_parse SrcSlice inp) \/
    datum_from_trait ro alpha fast std_parse SrcStr inp = datum_from_trait ro alpha fast std_parse SrcSlice inp.
  Proof.
    destruct (datum_from_trait_str_slice ro alpha fast std_parse inp) as [E|[E|E]].
    - left. apply pesc_rejected; [exact E| |].
      + apply (proj2 (total_from_trait ro alpha fast std_parse SrcSlice inp)).
      + apply (proj2 (from_trait_no_panic ro alpha fast std_parse SrcSlice inp)).
    - exfalso. exact (proj2 (total_from_trait ro alpha fast std_parse SrcStr inp) E).
    - right. exact E.
  Qed.

  Corollary slice_accepts_str_same (inp : list event) v :
    from_trait ro alpha fast std_parse SrcSlice inp = POk v -> from_trait ro alpha fast std_parse SrcStr inp = POk v.
  Proof.
    intros E. destruct (str_slice_agree inp) as [(l & c & R)|H]; [rewrite E in R; discriminate|]. rewrite H. exact E.
  Qed.

  Corollary str_stream_agree (s : bytes) :
    utf8_rejected (from_trait ro alpha fast std_parse SrcSlice (bytes_events s)) \/
    same_outcome (from_trait ro alpha fast std_parse SrcStr (bytes_events s)) (from_trait ro alpha fast std_parse SrcIo (bytes_events s)).
  Proof.
    destruct (str_slice_agree (bytes_events s)) as [R|H]; [left; exact R|]. right. rewrite H. apply slice_stream_agree.
  Qed.
End StrAgree.

Require Import IoFailProofs.
Section IoBeforeDetermined.
  Variable ro : parse_options.
  Variable alpha : N -> bool.
  Variable fast : bool.
  Variable std_parse : N -> Z -> f64.

  Lemma io_pesc_cases {A} e (x : pres A) : IoFailProofs.pesc e x -> x <> PErr (XErr EFuel) -> no_panic x -> x = PErr (XErr (EIo e)).
  Proof.
    destruct x as [a|[er|k]]; cbn [IoFailProofs.pesc]; intros H Hf Hp; try contradiction.
    - destruct er as [c l cl|io|]; cbn [IoFailProofs.pesc] in H; try contradiction. subst io. reflexivity.
    - exfalso. apply (Hp k). reflexivity.
  Qed.

  (* a stream that fails with e after delivering pre: from_reader reports that
     I/O error, or it reports exactly what it reports on pre followed by
     anything else - the delivered prefix determines the result *)
  Theorem io_error_or_determined (pre post cont : list event) (e : N) :
    from_trait ro alpha fast std_parse SrcIo (pre ++ EFail e :: post) = PErr (XErr (EIo e)) \/
    from_trait ro alpha fast std_parse SrcIo (pre ++ cont) = from_trait ro alpha fast std_parse SrcIo (pre ++ EFail e :: post).
  Proof.
    set (i1 := pre ++ cont). set (i2 := pre ++ EFail e :: post).
    set (fuel := Nat.max (fuel_for i1) (fuel_for i2)).
    destruct (from_trait_fuel_irrelevant ro alpha fast std_parse fuel SrcIo i1 ltac:(unfold fuel; lia)) as [F1 _].
    destruct (from_trait_fuel_irrelevant ro alpha fast std_parse fuel SrcIo i2 ltac:(unfold fuel; lia)) as [F2 _].
    rewrite <- F1, <- F2.
    pose proof (proj1 (total_from_trait ro alpha fast std_parse SrcIo i1)) as T1.
    pose proof (proj1 (total_from_trait ro alpha fast std_parse SrcIo i2)) as T2.
    pose proof (proj1 (from_trait_no_panic ro alpha fast std_parse SrcIo i2)) as P2.
    rewrite <- F1 in T1. rewrite <- F2 in T2, P2.
    unfold from_trait_fuel in *.
    destruct (io_fail_values e post cont ro alpha fast std_parse fuel pre) as [E|[E|(E & _)]].
    - left. apply io_pesc_cases; assumption.
    - exfalso. exact (T1 E).
    - right. exact E.
  Qed.
  Theorem io_error_or_determined_datum (pre post cont : list event) (e : N) :
    datum_from_trait ro alpha fast std_parse SrcIo (pre ++ EFail e :: post) = PErr (XErr (EIo e)) \/
    datum_from_trait ro alpha fast std_parse SrcIo (pre ++ cont) = datum_from_trait ro alpha fast std_parse SrcIo (pre ++ EFail e :: post).
  Proof.
    set (i1 := pre ++ cont). set (i2 := pre ++ EFail e :: post).
    set (fuel := Nat.max (fuel_for i1) (fuel_for i2)).
    destruct (from_trait_fuel_irrelevant ro alpha fast std_parse fuel SrcIo i1 ltac:(unfold fuel; lia)) as [_ F1].
    destruct (from_trait_fuel_irrelevant ro alpha fast std_parse fuel SrcIo i2 ltac:(unfold fuel; lia)) as [_ F2].
    rewrite <- F1, <- F2.
    pose proof (proj2 (total_from_trait ro alpha fast std_parse SrcIo i1)) as T1.
    pose proof (proj2 (total_from_trait ro alpha fast std_parse SrcIo i2)) as T2.
    pose proof (proj2 (from_trait_no_panic ro alpha fast std_parse SrcIo i2)) as P2.
    rewrite <- F1 in T1. rewrite <- F2 in T2, P2.
    unfold datum_from_trait_fuel in *.
    destruct (io_fail_datums e post cont ro alpha fast std_parse fuel pre) as [E|[E|(E & _)]].
    - left. apply io_pesc_cases; assumption.
    - exfalso. exact (T1 E).
    - right. exact E.
  Qed.
End IoBeforeDetermined.

Require Import TruncProofs.
Section Truncation.
  Variable ro : parse_options.
  Variable alpha : N -> bool.
  Variable fast : bool.
  Variable std_parse : N -> Z -> f64.

  (* the codes a proper prefix of an accepted text can fail with: the EOF
     category, and four checks made on data read before the end *)
  Definition trunc_code (c : errcode) : Prop :=
    classify_code c = CatEof \/ c = NumberOutOfRange \/ c = InvalidUnicodeCodePoint \/ c = ExpectedOctet \/ c = RecursionLimitExceeded.
  Lemma eofcode_trunc c : eofcode c = true -> trunc_code c.
  Proof. unfold eofcode, trunc_code. destruct c; cbn; intros H; try discriminate; tauto. Qed.

  Lemma trunc_pokres {A} (x : pres A) : pokres x -> x <> PErr (XErr EFuel) -> no_panic x ->
    (exists v, x = POk v) \/ (exists c l cl, x = PErr (XErr (ESyntax c l cl)) /\ trunc_code c).
  Proof.
    destruct x as [a|[e|k]]; cbn [pokres]; intros H Hf Hp.
    - left. eexists; reflexivity.
    - destruct e as [c l cl|io|]; cbn [eofish] in H; [|contradiction|exfalso; apply Hf; reflexivity].
      right. exists c, l, cl. split; [reflexivity|apply eofcode_trunc; exact H].
    - exfalso. apply (Hp k). reflexivity.
  Qed.

  Theorem truncation_partial (pre rest : list event) v :
    from_trait ro alpha fast std_parse SrcIo (pre ++ rest) = POk v ->
    (exists v', from_trait ro alpha fast std_parse SrcIo pre = POk v') \/
    (exists c l cl, from_trait ro alpha fast std_parse SrcIo pre = PErr (XErr (ESyntax c l cl)) /\ trunc_code c).
  Proof.
    intros EA. set (fuel := Nat.max (fuel_for pre) (fuel_for (pre ++ rest))).
    destruct (from_trait_fuel_irrelevant ro alpha fast std_parse fuel SrcIo pre ltac:(unfold fuel; lia)) as [F1 _].
    destruct (from_trait_fuel_irrelevant ro alpha fast std_parse fuel SrcIo (pre ++ rest) ltac:(unfold fuel; lia)) as [F2 _].
    pose proof (proj1 (total_from_trait ro alpha fast std_parse SrcIo pre)) as T1.
    pose proof (proj1 (from_trait_no_panic ro alpha fast std_parse SrcIo pre)) as P1.
    rewrite <- F2 in EA. rewrite <- F1 in T1, P1. rewrite <- F1. unfold from_trait_fuel in *.
    destruct (proj1 (trunc_from_trait rest ro alpha fast std_parse fuel pre)) as [(x & E)|[(E & _)|(_ & Ho)]].
    - rewrite EA in E. discriminate.
    - left. exists v. rewrite E. exact EA.
    - apply trunc_pokres; assumption.
  Qed.
  Theorem truncation_partial_datum (pre rest : list event) d :
    datum_from_trait ro alpha fast std_parse SrcIo (pre ++ rest) = POk d ->
    (exists d', datum_from_trait ro alpha fast std_parse SrcIo pre = POk d') \/
    (exists c l cl, datum_from_trait ro alpha fast std_parse SrcIo pre = PErr (XErr (ESyntax c l cl)) /\ trunc_code c).
  Proof.
    intros EA. set (fuel := Nat.max (fuel_for pre) (fuel_for (pre ++ rest))).
    destruct (from_trait_fuel_irrelevant ro alpha fast std_parse fuel SrcIo pre ltac:(unfold fuel; lia)) as [_ F1].
    destruct (from_trait_fuel_irrelevant ro alpha fast std_parse fuel SrcIo (pre ++ rest) ltac:(unfold fuel; lia)) as [_ F2].
    pose proof (proj2 (total_from_trait ro alpha fast std_parse SrcIo pre)) as T1.
    pose proof (proj2 (from_trait_no_panic ro alpha fast std_parse SrcIo pre)) as P1.
    rewrite <- F2 in EA. rewrite <- F1 in T1, P1. rewrite <- F1. unfold datum_from_trait_fuel in *.
    destruct (proj2 (trunc_from_trait rest ro alpha fast std_parse fuel pre)) as [(x & E)|[(E & _)|(_ & Ho)]].
    - rewrite EA in E. discriminate.
    - left. exists d. rewrite E. exact EA.
    - apply trunc_pokres; assumption.
  Qed.

  Corollary truncation_partial_slice (p s : bytes) v :
    from_trait ro alpha fast std_parse SrcSlice (bytes_events (p ++ s)) = POk v ->
    (exists v', from_trait ro alpha fast std_parse SrcSlice (bytes_events p) = POk v') \/
    (exists c l cl, from_trait ro alpha fast std_parse SrcSlice (bytes_events p) = PErr (XErr (ESyntax c l cl)) /\ trunc_code c).
  Proof.
    intros EA. pose proof (slice_stream_agree ro alpha fast std_parse (p ++ s)) as HA. rewrite EA in HA.
    destruct (from_trait ro alpha fast std_parse SrcIo (bytes_events (p ++ s))) as [v2|x2] eqn:E2; [|destruct x2 as [[? ? ?|?|]|?]; contradiction].
    cbn [same_outcome] in HA. subst v2.
    assert (Eapp : bytes_events (p ++ s) = bytes_events p ++ bytes_events s) by (unfold bytes_events; apply map_app).
    rewrite Eapp in E2.
    pose proof (slice_stream_agree ro alpha fast std_parse p) as HB.
    destruct (truncation_partial (bytes_events p) (bytes_events s) v E2) as [(v' & E)|(c & l & cl & E & Hc)]; rewrite E in HB.
    - left. destruct (from_trait ro alpha fast std_parse SrcSlice (bytes_events p)) as [v1|x1]; [exists v1; reflexivity|destruct x1 as [[? ? ?|?|]|?]; contradiction].
    - right. destruct (from_trait ro alpha fast std_parse SrcSlice (bytes_events p)) as [v1|x1]; [contradiction|].
      destruct x1 as [[c1 l1 cl1|io|]|k]; try contradiction. cbn [same_outcome] in HB. subst c1. exists c, l1, cl1. split; [reflexivity|exact Hc].
  Qed.
End Truncation.
