(* C05: decimal literals with a fraction and/or an exponent: the digit loops
   deliver exactly (significand, exponent) with significand * 10^exponent the
   value the literal denotes, and hand them to f64_from_parts. *)
From Coq Require Import SpecFloat ZifyBool ZifyNat ZifyN.
Require Import Base Value Float PrintOptions ParseOptions Utf8 Reader Scan Num NumberOps Parser.
Require Import Printer ReaderProofs TokenProofs NumTokenProofs.
Ltac Zify.zify_post_hook ::= Z.div_mod_to_equations.

Definition stops_digits (rest : bytes) : Prop := is_digit (head0 rest) = false.

Lemma overflow_Z_false a b c : (0 <= a)%Z -> (0 <= b)%Z -> (a * 10 + b <= c)%Z -> overflow_Z a 10 b c = false.
Proof. unfold overflow_Z. intros Ha Hb H. lia. Qed.

Lemma delim_stops rest : delim_ok rest -> stops_digits rest.
Proof. intros H. apply (delim_head rest H). Qed.

Lemma dec_digits_run fs : forall fuel r sig ex one rest, (length fs < fuel)%nat -> all_digits fs -> stops_digits rest ->
  dfold sig fs <= u64_MAX -> at_bytes r (fs ++ rest) ->
  exists r', decimal_digits fuel sig ex one r =
             (Ok (dfold sig fs, (ex - Z.of_nat (length fs))%Z, match fs with [] => one | _ => true end), r') /\
             at_bytes r' rest /\ rk r' = rk r /\ (rest <> [] -> peeked r').
Proof.
  induction fs as [|d fs IH]; intros fuel r sig ex one rest Hf Hd Hr Hmax Ha;
    (destruct fuel as [|f]; [cbn in Hf; lia|]); cbn [decimal_digits]; cbn [app] in Ha.
  - destruct (peek0_at r rest Ha) as (r0 & E0 & Ha0 & Hk0 & Hp0). rewrite (bind_ok _ _ _ _ _ E0).
    unfold stops_digits in Hr. rewrite Hr. exists r0. unfold ret. cbn [length dfold fold_left].
    replace (ex - Z.of_nat 0)%Z with ex by lia. auto.
  - inversion Hd as [|? ? Hdig Hd']; subst. step. rewrite Hdig. step.
    change (dfold sig (d :: fs)) with (dfold (sig * 10 + (d - 48)) fs) in *.
    pose proof (dfold_ge fs (sig * 10 + (d - 48))) as Hge.
    rewrite overflow_N_false by lia.
    destruct (IH f r1 (sig * 10 + (d - 48)) (ex - 1)%Z true rest ltac:(cbn in Hf; lia) Hd' Hr Hmax Ha1)
      as (r2 & E & Ha2 & Hk2 & Hp2).
    exists r2. rewrite E. cbn [length]. replace (ex - 1 - Z.of_nat (length fs))%Z with (ex - Z.of_nat (S (length fs)))%Z by lia.
    split; [destruct fs; reflexivity|]. repeat split; auto; congruence.
Qed.

Section Decimal.
  Variable fast : bool.
  Variable std_parse : N -> Z -> f64.
  Local Notation f64_from_parts := (f64_from_parts fast std_parse).

  Lemma fast_loop_state fuel : forall f e r, snd (f64_from_parts_fast_loop fuel f e r) = r.
  Proof.
    induction fuel as [|k IH]; intros f e r; cbn [f64_from_parts_fast_loop]; [reflexivity|].
    repeat match goal with |- context [if ?c then _ else _] => destruct c end;
      try reflexivity; try (unfold error; destruct (r_position r); reflexivity); apply IH.
  Qed.
  Lemma from_parts_state pos sig e r : snd (f64_from_parts pos sig e r) = r.
  Proof.
    unfold Num.f64_from_parts. destruct fast.
    - unfold bind. pose proof (fast_loop_state 8 (f64_of_N sig) e r) as H.
      destruct (f64_from_parts_fast_loop 8 (f64_of_N sig) e r) as [[a|er] s]; cbn [snd] in *; subst; reflexivity.
    - destruct (is_infinite_f64 _); [unfold error; destruct (r_position r)|]; reflexivity.
  Qed.

  Lemma exp_digits_run es : forall fuel r pos sig pexp start e0 rest, (length es < fuel)%nat -> all_digits es ->
    stops_digits rest -> (Z.of_N (dfold e0 es) <= i32_MAX)%Z -> at_bytes r (es ++ rest) ->
    exists r', exponent_digits fast std_parse fuel pos sig pexp start (Z.of_N e0) r =
               f64_from_parts pos sig (if pexp then sat_i32 (start + Z.of_N (dfold e0 es))
                                       else sat_i32 (start - Z.of_N (dfold e0 es))) r' /\
               at_bytes r' rest /\ rk r' = rk r.
  Proof.
    induction es as [|d es IH]; intros fuel r pos sig pexp start e0 rest Hf Hd Hr Hmax Ha;
      (destruct fuel as [|f]; [cbn in Hf; lia|]); cbn [exponent_digits]; cbn [app] in Ha.
    - destruct (peek0_at r rest Ha) as (r0 & E0 & Ha0 & Hk0 & _). rewrite (bind_ok _ _ _ _ _ E0).
      unfold stops_digits in Hr. rewrite Hr. exists r0. cbn [dfold fold_left]. auto.
    - inversion Hd as [|? ? Hdig Hd']; subst. step. rewrite Hdig. step.
      change (dfold e0 (d :: es)) with (dfold (e0 * 10 + (d - 48)) es) in *.
      pose proof (dfold_ge es (e0 * 10 + (d - 48))) as Hge.
      assert (Hdr : 48 <= d <= 57) by (unfold is_digit, in_range in Hdig; lia).
      rewrite overflow_Z_false by lia.
      replace (Z.of_N e0 * 10 + Z.of_N (d - 48))%Z with (Z.of_N (e0 * 10 + (d - 48))) by lia.
      destruct (IH f r1 pos sig pexp start (e0 * 10 + (d - 48)) rest ltac:(cbn in Hf; lia) Hd' Hr Hmax Ha1)
        as (r2 & E & Ha2 & Hk2).
      exists r2. rewrite E. repeat split; auto; congruence.
  Qed.

  Definition sign_text (sg : option bool) : bytes :=
    match sg with None => [] | Some true => [43] | Some false => [45] end.
  Definition sign_pos (sg : option bool) : bool := match sg with Some false => false | _ => true end.

  Definition exp_text (ex : option (N * option bool * bytes)) : bytes :=
    match ex with None => [] | Some (ec, sg, es) => ec :: sign_text sg ++ es end.
  Definition exp_ok (ex : option (N * option bool * bytes)) : Prop :=
    match ex with
    | None => True
    | Some (ec, sg, es) => (ec = 101 \/ ec = 69) /\ es <> [] /\ all_digits es /\ (Z.of_N (dfold 0 es) <= i32_MAX)%Z
    end.
  (* the exponent the literal denotes, saturated to i32 as the code does *)
  Definition exp_value (start : Z) (ex : option (N * option bool * bytes)) : Z :=
    match ex with
    | None => start
    | Some (_, sg, es) => if sign_pos sg then sat_i32 (start + Z.of_N (dfold 0 es)) else sat_i32 (start - Z.of_N (dfold 0 es))
    end.

  Lemma parse_exponent_run fuel r pos sig start ec sg es rest :
    exp_ok (Some (ec, sg, es)) -> (length (exp_text (Some (ec, sg, es))) < fuel)%nat -> stops_digits rest ->
    at_bytes r (exp_text (Some (ec, sg, es)) ++ rest) -> peeked r ->
    exists r', parse_exponent fast std_parse fuel pos sig start r =
               f64_from_parts pos sig (exp_value start (Some (ec, sg, es))) r' /\
               at_bytes r' rest /\ rk r' = rk r.
  Proof.
    intros (_ & Hne & Hd & Hmax) Hf Hr Ha Hp. destruct es as [|d es]; [contradiction|].
    cbn [exp_text exp_value app length] in *. rewrite <- app_assoc in Ha. rewrite app_length in Hf.
    unfold parse_exponent. step.
    inversion Hd as [|? ? Hdig Hd']; subst.
    assert (Hdr : 48 <= d <= 57) by (unfold is_digit, in_range in Hdig; lia).
    change (dfold 0 (d :: es)) with (dfold (d - 48) es) in *.
    assert (Hsign : exists r1, at_bytes r1 ((d :: es) ++ rest) /\ rk r1 = rk r0 /\
      forall k : bool -> M f64,
        (c <- peek_or_null ;;
         pe <- (if c =? 43 then eat_char ;;; ret true else if c =? 45 then eat_char ;;; ret false else ret true) ;; k pe) r0
        = k (sign_pos sg) r1).
    { destruct sg as [[|]|]; cbn [sign_text app] in Ha0.
      - destruct (m_peek_or_null_cons r0 43 _ Ha0) as (r1 & E1 & Ha1 & Hp1 & Hk1).
        destruct (m_eat r1 43 _ Ha1 Hp1) as (r2 & E2 & Ha2 & Hk2).
        exists r2. repeat split; auto; try congruence. intros k.
        rewrite (bind_ok _ _ _ _ _ E1). change (43 =? 43) with true. cbv iota.
        unfold bind at 1. unfold bind at 1. rewrite E2. reflexivity.
      - destruct (m_peek_or_null_cons r0 45 _ Ha0) as (r1 & E1 & Ha1 & Hp1 & Hk1).
        destruct (m_eat r1 45 _ Ha1 Hp1) as (r2 & E2 & Ha2 & Hk2).
        exists r2. repeat split; auto; try congruence. intros k.
        rewrite (bind_ok _ _ _ _ _ E1). change (45 =? 43) with false. change (45 =? 45) with true. cbv iota.
        unfold bind at 1. unfold bind at 1. rewrite E2. reflexivity.
      - destruct (m_peek_or_null_cons r0 d _ Ha0) as (r1 & E1 & Ha1 & Hp1 & Hk1).
        exists r1. repeat split; auto. intros k.
        rewrite (bind_ok _ _ _ _ _ E1).
        replace (d =? 43) with false by lia. replace (d =? 45) with false by lia. reflexivity. }
    destruct Hsign as (r1 & Ha1 & Hk1 & Hs). rewrite Hs. cbn [app] in Ha1.
    step. rewrite Hdig.
    destruct (exp_digits_run es fuel r2 pos sig (sign_pos sg) start (d - 48) rest ltac:(cbn [length] in Hf; lia) Hd' Hr Hmax Ha2)
      as (r3 & E3 & Ha3 & Hk3).
    exists r3. rewrite E3. repeat split; auto; congruence.
  Qed.

  Lemma exp_letter ec : ec = 101 \/ ec = 69 -> (ec =? 46) = false /\ ((ec =? 101) || (ec =? 69)) = true.
  Proof. intros [->| ->]; split; reflexivity. Qed.

  Lemma exponent_or_done fuel r pos sig start ex rest :
    exp_ok ex -> (length (exp_text ex) < fuel)%nat -> delim_ok rest -> at_bytes r (exp_text ex ++ rest) ->
    (exp_text ex ++ rest <> [] -> peeked r) ->
    exists r', (c <- peek_or_null ;;
                if (c =? 101) || (c =? 69) then parse_exponent fast std_parse fuel pos sig start
                else f64_from_parts pos sig start) r = f64_from_parts pos sig (exp_value start ex) r' /\
               at_bytes r' rest /\ rk r' = rk r.
  Proof.
    intros Hok Hf Hr Ha Hp. destruct (peek0_at r _ Ha) as (r0 & E0 & Ha0 & Hk0 & Hp0). rewrite (bind_ok _ _ _ _ _ E0).
    destruct ex as [[[ec sg] es]|].
    - cbn [exp_text app head0]. destruct (exp_letter ec (proj1 Hok)) as [_ ->].
      destruct (parse_exponent_run fuel r0 pos sig start ec sg es rest Hok Hf (delim_stops rest Hr) Ha0
                  ltac:(apply Hp0; discriminate)) as (r1 & E1 & Ha1 & Hk1).
      exists r1. rewrite E1. repeat split; auto; congruence.
    - cbn [exp_text app exp_value] in *. destruct (delim_head rest Hr) as (_ & _ & _ & ->). exists r0. auto.
  Qed.

  Lemma exp_text_stops ex rest : exp_ok ex -> delim_ok rest -> stops_digits (exp_text ex ++ rest).
  Proof.
    destruct ex as [[[ec sg] es]|]; cbn [exp_text exp_ok app].
    - intros ([->| ->] & _) _; reflexivity.
    - intros _ H. apply delim_stops. exact H.
  Qed.

  Lemma parse_decimal_run fuel r pos sig start fs ex rest :
    fs <> [] -> all_digits fs -> dfold sig fs <= u64_MAX -> exp_ok ex ->
    (length fs + length (exp_text ex) < fuel)%nat -> delim_ok rest ->
    at_bytes r (46 :: fs ++ exp_text ex ++ rest) -> peeked r ->
    exists r', parse_decimal fast std_parse fuel pos sig start r =
               f64_from_parts pos (dfold sig fs) (exp_value (start - Z.of_nat (length fs)) ex) r' /\
               at_bytes r' rest /\ rk r' = rk r.
  Proof.
    intros Hne Hd Hmax Hex Hf Hr Ha Hp. unfold parse_decimal. step.
    destruct (dec_digits_run fs fuel r0 sig start false (exp_text ex ++ rest) ltac:(lia) Hd
                (exp_text_stops ex rest Hex Hr) Hmax Ha0) as (r1 & E1 & Ha1 & Hk1 & Hp1).
    rewrite (bind_ok _ _ _ _ _ E1). destruct fs as [|f0 fs']; [contradiction|]. cbv iota beta. cbn [negb].
    destruct (exponent_or_done fuel r1 pos (dfold sig (f0 :: fs')) (start - Z.of_nat (length (f0 :: fs')))%Z ex rest
                Hex ltac:(lia) Hr Ha1 Hp1) as (r2 & E2 & Ha2 & Hk2).
    exists r2. rewrite E2. repeat split; auto; congruence.
  Qed.

  Definition frac_text (fs : bytes) : bytes := match fs with [] => [] | _ => 46 :: fs end.
  Definition lit_text (ip fs : bytes) (ex : option (N * option bool * bytes)) : bytes :=
    ip ++ frac_text fs ++ exp_text ex.
  Definition lit_sig (ip fs : bytes) : N := dfold 0 (ip ++ fs).
  Definition lit_exp (fs : bytes) (ex : option (N * option bool * bytes)) : Z := exp_value (- Z.of_nat (length fs)) ex.
  Definition is_float_lit (fs : bytes) (ex : option (N * option bool * bytes)) : Prop := fs <> [] \/ ex <> None.

  Lemma num_tail_run fuel r pos ip_val fs ex rest :
    is_float_lit fs ex -> all_digits fs -> dfold ip_val fs <= u64_MAX -> exp_ok ex ->
    (length fs + length (exp_text ex) < fuel)%nat -> delim_ok rest ->
    at_bytes r (frac_text fs ++ exp_text ex ++ rest) ->
    exists r', parse_num_tail fast std_parse fuel 10 pos ip_val r =
               (x <- f64_from_parts pos (dfold ip_val fs) (lit_exp fs ex) ;; ret (Float x)) r' /\
               at_bytes r' rest /\ rk r' = rk r.
  Proof.
    intros Hfl Hd Hmax Hex Hf Hr Ha. unfold parse_num_tail, lit_exp.
    destruct (peek0_at r _ Ha) as (r0 & E0 & Ha0 & Hk0 & Hp0). rewrite (bind_ok _ _ _ _ _ E0).
    change (negb (10 =? 10)) with false. destruct fs as [|f0 fs'].
    - (* no fraction: an exponent *)
      destruct Hfl as [Hc|Hc]; [contradiction|]. destruct ex as [[[ec sg] es]|]; [|contradiction].
      cbn [frac_text exp_text app head0]. destruct (exp_letter ec (proj1 Hex)) as [-> ->].
      destruct (parse_exponent_run fuel r0 pos ip_val 0 ec sg es rest Hex Hf (delim_stops rest Hr) Ha0
                  ltac:(apply Hp0; discriminate)) as (r1 & E1 & Ha1 & Hk1).
      exists r1. split; [|split; [assumption|congruence]]. unfold bind at 1. rewrite E1. reflexivity.
    - cbn [frac_text app head0] in *. change (46 =? 46) with true. cbv iota.
      destruct (parse_decimal_run fuel r0 pos ip_val 0 (f0 :: fs') ex rest ltac:(discriminate) Hd Hmax Hex Hf Hr Ha0
                  ltac:(apply Hp0; discriminate)) as (r1 & E1 & Ha1 & Hk1).
      exists r1. split; [|split; [assumption|congruence]]. unfold bind at 1. rewrite E1. reflexivity.
  Qed.

  Lemma lit_rest_stops fs ex rest : is_float_lit fs ex -> exp_ok ex -> stops_digits (frac_text fs ++ exp_text ex ++ rest).
  Proof.
    intros Hfl Hex. destruct fs as [|f0 fs']; [|reflexivity]. cbn [frac_text app].
    destruct Hfl as [Hc|Hc]; [contradiction|]. destruct ex as [[[ec sg] es]|]; [|contradiction].
    destruct Hex as ([->| ->] & _); reflexivity.
  Qed.

  Theorem num_literal_decimal fuel r pos d ip fs ex rest :
    all_digits (d :: ip) -> all_digits fs -> is_float_lit fs ex -> exp_ok ex -> lit_sig (d :: ip) fs <= u64_MAX ->
    (S (length (lit_text (d :: ip) fs ex)) < fuel)%nat -> delim_ok rest ->
    at_bytes r (lit_text (d :: ip) fs ex ++ rest) ->
    exists r', parse_num_literal fast std_parse fuel 10 pos r =
               (x <- f64_from_parts pos (lit_sig (d :: ip) fs) (lit_exp fs ex) ;; ret (Float x)) r' /\
               at_bytes r' rest /\ rk r' = rk r.
  Proof.
    intros Hdi Hdf Hfl Hex Hmax Hf Hr Ha. unfold lit_text, lit_sig in *.
    rewrite <- !app_assoc in Ha. cbn [app] in Ha. rewrite !app_length in Hf.
    apply all_digits_val in Hdi. inversion Hdi as [|? ? Hdig Hdi']; subst.
    destruct (num_literal_first fast std_parse 10 (fun c => c - 48) eq_refl fuel r pos d _ Hdig Ha) as (r0 & E0 & Ha0 & Hk0).
    rewrite dfold_app in Hmax. change (dfold 0 (d :: ip)) with (dfold (d - 48) ip) in *.
    pose proof (dfold_ge fs (dfold (d - 48) ip)) as Hge.
    destruct (num_loop_run fast std_parse 10 (fun c => c - 48) eq_refl ip fuel r0 pos (d - 48) (frac_text fs ++ exp_text ex ++ rest)
                ltac:(cbn [length] in Hf; lia) Hdi' (digit_val_nondigit _ (lit_rest_stops fs ex rest Hfl Hex)) ltac:(unfold dfold in *; lia) Ha0)
      as (r1 & E1 & Ha1 & Hk1).
    destruct (num_tail_run (fuel - 1 - length ip) r1 pos (dfold (d - 48) ip) fs ex rest Hfl Hdf Hmax Hex
                ltac:(destruct fs; cbn [frac_text length] in Hf |- *; lia) Hr Ha1) as (r3 & E3 & Ha3 & Hk3).
    exists r3. rewrite E0, E1, dfold_app. split; [exact E3|]. split; [assumption|congruence].
  Qed.
End Decimal.
