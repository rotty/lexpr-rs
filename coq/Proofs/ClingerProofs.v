(* C05, the Clinger fast path: with a significand below 2^53 and a power of
   ten up to 10^22 both operands are exact doubles, so the single IEEE
   multiplication or division the parser performs returns the correctly rounded
   value of the literal. Stated against Flocq's real-number semantics. *)
From Coq Require Import ZArith Reals Lia Lra SpecFloat.
From Flocq Require Import Core BinarySingleNaN.
Require Import Base Value Float Reader Num.

Local Open Scope Z_scope.

(* binary64; Flocq's PrimFloat.v has these equivalences too, but importing it
   would pull the primitive-float axioms of Coq.Floats into the library closure *)
Definition p53 : Z := 53.
Definition e1024 : Z := 1024.
Lemma prec53_gt_0 : Prec_gt_0 p53.  Proof. reflexivity. Qed.
Lemma prec53_lt_emax : Prec_lt_emax p53 e1024.  Proof. reflexivity. Qed.
Local Existing Instance prec53_gt_0.
Local Existing Instance prec53_lt_emax.
Local Notation bfloat := (binary_float p53 e1024).
Local Notation fexp64 := (SpecFloat.fexp p53 e1024).
Local Notation rnd64 := (round radix2 fexp64 ZnearestE).

Lemma round_nearest_even_equiv s m l : round_nearest_even m l = choice_mode mode_NE s m l.
Proof.
  case l; [reflexivity|intro c]. case c; [ | reflexivity..].
  now simpl; unfold Round.cond_incr; case Z.even.
Qed.
Lemma binary_round_aux_equiv sx mx ex lx :
  SpecFloat.binary_round_aux p53 e1024 sx mx ex lx = binary_round_aux p53 e1024 mode_NE sx mx ex lx.
Proof.
  unfold SpecFloat.binary_round_aux, binary_round_aux.
  set (mrse' := shr_fexp _ _ _). case mrse'; intros mrs' e'; simpl.
  now rewrite (round_nearest_even_equiv sx).
Qed.
Lemma binary_round_equiv s m e :
  SpecFloat.binary_round p53 e1024 s m e = binary_round p53 e1024 mode_NE s m e.
Proof.
  unfold SpecFloat.binary_round, binary_round, shl_align_fexp.
  set (mez := shl_align _ _ _); case mez as [mz ez]. apply binary_round_aux_equiv.
Qed.
Lemma binary_normalize_equiv m e szero :
  SpecFloat.binary_normalize p53 e1024 m e szero = B2SF (binary_normalize p53 e1024 prec53_gt_0 prec53_lt_emax mode_NE m e szero).
Proof.
  case m as [ | p | p].
  - now simpl.
  - simpl; rewrite B2SF_SF2B; apply binary_round_equiv.
  - simpl; rewrite B2SF_SF2B; apply binary_round_equiv.
Qed.

Definition bnorm (z : Z) : bfloat := binary_normalize p53 e1024 prec53_gt_0 prec53_lt_emax mode_NE z 0 false.

Lemma f64_of_Z_B z : f64_of_Z z = B2SF (bnorm z).
Proof. unfold f64_of_Z, bnorm. apply binary_normalize_equiv. Qed.

Lemma SFmul_B (x y : bfloat) : SFmul p53 e1024 (B2SF x) (B2SF y) = B2SF (Bmult mode_NE x y).
Proof.
  destruct x as [sx|sx| |sx mx ex Bx]; destruct y as [sy|sy| |sy my ey By]; try reflexivity.
  simpl. rewrite B2SF_SF2B. apply binary_round_aux_equiv.
Qed.

Lemma SFdiv_B (x y : bfloat) : SFdiv p53 e1024 (B2SF x) (B2SF y) = B2SF (Bdiv mode_NE x y).
Proof.
  destruct x as [sx|sx| |sx mx ex Bx]; destruct y as [sy|sy| |sy my ey By]; try reflexivity.
  simpl. rewrite B2SF_SF2B.
  set (melz := SFdiv_core_binary _ _ _ _ _ _). destruct melz as [[mz ez] lz].
  apply binary_round_aux_equiv.
Qed.

Lemma fexp64_FLT e : fexp64 e = FLT_exp (-1074) 53 e.
Proof. reflexivity. Qed.

Lemma format_small m e : Z.abs m < 2 ^ 53 -> 0 <= e ->
  generic_format radix2 fexp64 (F2R (Defs.Float radix2 m e)).
Proof.
  intros Hm He. apply generic_format_FLT. exists (Defs.Float radix2 m e); [reflexivity|exact Hm|change (-1074 <= e); lia].
Qed.

Lemma bnorm_exact m e : Z.abs m < 2 ^ 53 -> 0 <= e <= 64 ->
  B2R (bnorm (m * 2 ^ e)) = F2R (Defs.Float radix2 m e) /\ is_finite (bnorm (m * 2 ^ e)) = true.
Proof.
  intros Hm He. unfold bnorm.
  pose proof (binary_normalize_correct p53 e1024 prec53_gt_0 prec53_lt_emax mode_NE (m * 2 ^ e) 0 false) as H.
  cbv zeta in H.
  assert (Hx : F2R (Defs.Float radix2 (m * 2 ^ e) 0) = F2R (Defs.Float radix2 m e)).
  { unfold F2R. simpl Fnum. simpl Fexp. rewrite mult_IZR. change 2 with (radix_val radix2) at 1.
    rewrite IZR_Zpower by lia. simpl bpow at 2. ring. }
  rewrite Hx in H.
  assert (Hfmt : generic_format radix2 fexp64 (F2R (Defs.Float radix2 m e))) by (apply format_small; lia).
  change (round_mode mode_NE) with ZnearestE in H.
  rewrite (round_generic radix2 fexp64 ZnearestE _ Hfmt) in H.
  rewrite Rlt_bool_true in H.
  - destruct H as (H1 & H2 & _). auto.
  - rewrite <- F2R_Zabs. unfold F2R. simpl Fnum. simpl Fexp.
    apply Rlt_le_trans with (IZR (2 ^ 53) * bpow radix2 e)%R.
    + apply Rmult_lt_compat_r; [apply bpow_gt_0|]. apply IZR_lt. exact Hm.
    + change (2 ^ 53) with (radix2 ^ 53). rewrite IZR_Zpower by lia. rewrite <- bpow_plus.
      apply bpow_le. unfold e1024. lia.
Qed.

Lemma five_pow_small e : 0 <= e <= 22 -> Z.abs (5 ^ e) < 2 ^ 53.
Proof.
  intros He. rewrite Z.abs_eq by (apply Z.pow_nonneg; lia).
  apply Z.le_lt_trans with (5 ^ 22); [apply Z.pow_le_mono_r; lia|reflexivity].
Qed.

Lemma ten_pow_split e : 10 ^ e = 5 ^ e * 2 ^ e.
Proof. change 10 with (5 * 2). apply Z.pow_mul_l. Qed.

Lemma pow10_exact e : 0 <= e <= 22 ->
  B2R (bnorm (10 ^ e)) = IZR (10 ^ e) /\ is_finite (bnorm (10 ^ e)) = true.
Proof.
  intros He. rewrite ten_pow_split.
  destruct (bnorm_exact (5 ^ e) e (five_pow_small e He) ltac:(lia)) as [H1 H2].
  split; [|exact H2]. rewrite H1. unfold F2R. simpl Fnum. simpl Fexp.
  rewrite mult_IZR. rewrite <- (IZR_Zpower radix2 e) by lia. reflexivity.
Qed.

Lemma int_exact m : Z.abs m < 2 ^ 53 -> B2R (bnorm m) = IZR m /\ is_finite (bnorm m) = true.
Proof.
  intros Hm. destruct (bnorm_exact m 0 Hm ltac:(lia)) as [H1 H2]. rewrite Z.mul_1_r in H1, H2.
  split; [|exact H2]. rewrite H1. unfold F2R. simpl. ring.
Qed.

Lemma valid64 : Valid_exp fexp64.
Proof. apply FLT_exp_valid. reflexivity. Qed.
Lemma fmt_bpow k : -1074 <= k -> generic_format radix2 fexp64 (bpow radix2 k).
Proof. intros Hk. apply generic_format_bpow. rewrite fexp64_FLT. unfold FLT_exp. lia. Qed.

Lemma round_bounded (x : R) k : (Rabs x <= bpow radix2 k)%R -> k < 1024 -> -1074 <= k ->
  (Rabs (rnd64 x) < bpow radix2 e1024)%R.
Proof.
  intros Hx Hk Hk'. apply Rle_lt_trans with (bpow radix2 k).
  - apply abs_round_le_generic; [exact valid64|apply valid_rnd_N|apply fmt_bpow; exact Hk'|exact Hx].
  - apply bpow_lt. exact Hk.
Qed.

Theorem clinger_mul (sig : N) (e : N) : (Z.of_N sig < 2 ^ 53) -> (Z.of_N e <= 22) ->
  exists b : bfloat,
    f64_mul (f64_of_N sig) (pow10_f64 e) = B2SF b /\ is_finite b = true /\
    B2R b = rnd64 (IZR (Z.of_N sig) * IZR (10 ^ Z.of_N e)).
Proof.
  intros Hs He. unfold f64_mul, f64_of_N, pow10_f64. rewrite !f64_of_Z_B.
  change Value.prec with p53. change Value.emax with e1024. rewrite SFmul_B.
  destruct (int_exact (Z.of_N sig) ltac:(lia)) as [Hx Hfx].
  destruct (pow10_exact (Z.of_N e) ltac:(lia)) as [Hy Hfy].
  pose proof (Bmult_correct p53 e1024 prec53_gt_0 prec53_lt_emax mode_NE (bnorm (Z.of_N sig)) (bnorm (10 ^ Z.of_N e))) as H.
  rewrite Hx, Hy in H. change (round_mode mode_NE) with ZnearestE in H.
  rewrite Rlt_bool_true in H.
  - destruct H as (H1 & H2 & _). eexists. split; [reflexivity|]. rewrite H2, Hfx, Hfy. auto.
  - apply (round_bounded _ 127); [|lia|lia].
    rewrite <- mult_IZR, <- abs_IZR. change (bpow radix2 127) with (IZR (2 ^ 127)). apply IZR_le.
    rewrite Z.abs_eq by (apply Z.mul_nonneg_nonneg; [lia|apply Z.pow_nonneg; lia]).
    apply Z.le_trans with (2 ^ 53 * 10 ^ 22); [|vm_compute; discriminate].
    apply Z.mul_le_mono_nonneg; [lia|lia|apply Z.pow_nonneg; lia|apply Z.pow_le_mono_r; lia].
Qed.

Theorem clinger_div (sig : N) (e : N) : (Z.of_N sig < 2 ^ 53) -> (Z.of_N e <= 22) ->
  exists b : bfloat,
    f64_div (f64_of_N sig) (pow10_f64 e) = B2SF b /\ is_finite b = true /\
    B2R b = rnd64 (IZR (Z.of_N sig) / IZR (10 ^ Z.of_N e)).
Proof.
  intros Hs He. unfold f64_div, f64_of_N, pow10_f64. rewrite !f64_of_Z_B.
  change Value.prec with p53. change Value.emax with e1024. rewrite SFdiv_B.
  destruct (int_exact (Z.of_N sig) ltac:(lia)) as [Hx Hfx].
  destruct (pow10_exact (Z.of_N e) ltac:(lia)) as [Hy Hfy].
  assert (Hpos : (1 <= IZR (10 ^ Z.of_N e))%R).
  { apply IZR_le. change 1 with (10 ^ 0). apply Z.pow_le_mono_r; lia. }
  pose proof (Bdiv_correct p53 e1024 prec53_gt_0 prec53_lt_emax mode_NE (bnorm (Z.of_N sig)) (bnorm (10 ^ Z.of_N e))) as H.
  rewrite Hx, Hy in H. specialize (H ltac:(lra)). change (round_mode mode_NE) with ZnearestE in H.
  rewrite Rlt_bool_true in H.
  - destruct H as (H1 & H2 & _). eexists. split; [reflexivity|]. rewrite H2, Hfx. auto.
  - apply (round_bounded _ 53); [|lia|lia].
    unfold Rdiv. rewrite Rabs_mult. rewrite (Rabs_pos_eq (/ _)) by (apply Rlt_le, Rinv_0_lt_compat; lra).
    apply Rle_trans with (Rabs (IZR (Z.of_N sig)) * 1)%R.
    + apply Rmult_le_compat_l; [apply Rabs_pos|]. rewrite <- Rinv_1. apply Rinv_le; lra.
    + rewrite Rmult_1_r, <- abs_IZR. change (bpow radix2 53) with (IZR (2 ^ 53)). apply IZR_le. lia.
Qed.

Lemma finite_not_infinite (b : bfloat) : is_finite b = true -> is_infinite_f64 (B2SF b) = false.
Proof. destruct b; try discriminate; reflexivity. Qed.

Definition dec_value (sig : N) (e : Z) : R :=
  if (0 <=? e)%Z then (IZR (Z.of_N sig) * IZR (10 ^ e))%R else (IZR (Z.of_N sig) / IZR (10 ^ (- e)))%R.

Theorem from_parts_fast std_parse pos sig e r : Z.of_N sig < 2 ^ 53 -> Z.abs e <= 22 ->
  exists b : bfloat,
    f64_from_parts true std_parse pos sig e r = (Ok (if pos then B2SF b else f64_neg (B2SF b)), r) /\
    is_finite b = true /\ B2R b = rnd64 (dec_value sig e).
Proof.
  intros Hs He. unfold f64_from_parts, dec_value. cbn [f64_from_parts_fast_loop].
  replace (Z.abs e <=? 308) with true by lia.
  destruct (0 <=? e) eqn:E0.
  - destruct (clinger_mul sig (Z.to_N e) Hs ltac:(lia)) as (b & Eb & Hf & Hv).
    rewrite Z2N.id in Hv by lia. exists b. rewrite Eb, (finite_not_infinite b Hf).
    unfold bind, ret. auto.
  - destruct (clinger_div sig (Z.to_N (- e)) Hs ltac:(lia)) as (b & Eb & Hf & Hv).
    rewrite Z2N.id in Hv by lia. exists b. rewrite Eb. unfold bind, ret. auto.
Qed.
