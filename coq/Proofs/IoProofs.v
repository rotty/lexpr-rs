(* C06: read failures are never swallowed. Instance of the generic traversal:
   the number of failure events left in the input only decreases together
   with an error result -- at reader level exactly that I/O error. *)
From Coq Require Import SpecFloat Lia.
Require Import Base Value Float PrintOptions ParseOptions Utf8 Reader Scan Num NumberOps Parser RelFramework.

Fixpoint nfail (l : list event) : nat :=
  match l with
  | [] => 0
  | EFail _ :: l' => S (nfail l')
  | _ :: l' => nfail l'
  end.
Definition nf (r : reader) : nat := nfail (rinput r).

(* strong form (reader level): consuming a failure event means returning it *)
Definition Rio (r : reader) (x : option perr) (r' : reader) : Prop :=
  (nf r' <= nf r)%nat /\ ((nf r' < nf r)%nat -> exists io, x = Some (EIo io)).
(* weak form (parser level, where the first error raised wins over one met
   while closing the sequence): consuming a failure event means an error *)
Definition Rio_w (r : reader) (x : option perr) (r' : reader) : Prop :=
  (nf r' <= nf r)%nat /\ ((nf r' < nf r)%nat -> x <> None).

Lemma Rio_weaken r x r' : Rio r x r' -> Rio_w r x r'.
Proof. intros [H1 H2]. split; [exact H1|]. intros H. destruct (H2 H) as [io ->]. discriminate. Qed.

Lemma nfail_skip_intr l : nfail (skip_intr l) = nfail l.
Proof. induction l as [|[b| |e] l IH]; cbn [skip_intr nfail]; auto. Qed.

Lemma Rio_same r x r' : nf r' = nf r -> Rio r x r'.
Proof. intros H. split; lia. Qed.

Lemma sat_peek_io : sat Rio peek.
Proof.
  intros r. unfold peek, r_peek, R. destruct (rpending r) eqn:Ep.
  - destruct (rinput r) as [|[b| |e] l]; apply Rio_same; reflexivity.
  - pose proof (nfail_skip_intr (rinput r)) as Hn.
    destruct (skip_intr (rinput r)) as [|[b| |e] l] eqn:Es; cbn [fst snd erase].
    + apply Rio_same. unfold nf. cbn [rinput]. now rewrite <- Hn.
    + apply Rio_same. unfold nf. cbn [rinput]. now rewrite <- Hn.
    + apply Rio_same. reflexivity.
    + unfold Rio, nf. cbn [rinput]. rewrite <- Hn. cbn [nfail]. split; [lia|]. intros _. eexists; reflexivity.
Qed.

Lemma consume_nf r b l : nf (consume r b l) = nfail l.
Proof. unfold consume, nf. destruct (advance (rline r) (rcol r) b). reflexivity. Qed.

Lemma sat_next_io : sat Rio next_char.
Proof.
  intros r. unfold next_char, r_next, R.
  assert (Hn : nfail (if rpending r then rinput r else skip_intr (rinput r)) = nf r).
  { destruct (rpending r); [reflexivity|apply nfail_skip_intr]. }
  destruct (if rpending r then rinput r else skip_intr (rinput r)) as [|[b| |e] l]; cbn [fst snd erase].
  - apply Rio_same. unfold nf at 1. cbn [rinput]. exact Hn.
  - apply Rio_same. rewrite consume_nf. exact Hn.
  - apply Rio_same. reflexivity.
  - unfold Rio. unfold nf at 1 3. cbn [rinput]. rewrite <- Hn. cbn [nfail]. split; [lia|]. intros _. eexists; reflexivity.
Qed.

Lemma discard_nf r : nf (r_discard r) = nf r.
Proof.
  unfold r_discard. destruct (rk r); try destruct (rpending r);
    try reflexivity; destruct (rinput r) as [|[b| |e] l] eqn:E; try reflexivity;
    rewrite consume_nf; unfold nf; rewrite E; reflexivity.
Qed.

Lemma sat_eat_io : sat Rio eat_char.
Proof. intros r. unfold eat_char, R. cbn [fst snd]. apply Rio_same. apply discard_nf. Qed.

Lemma sat_error_io A c : sat Rio (@error A c).
Proof. intros r. unfold error, R. destruct (r_position r). apply Rio_same. reflexivity. Qed.
Lemma sat_peek_error_io A c : sat Rio (@peek_error A c).
Proof. intros r. unfold peek_error, R. destruct (r_peek_position r). apply Rio_same. reflexivity. Qed.
Lemma sat_error_consume_io A c : sat Rio (@error_consume A c).
Proof.
  intros r. unfold error_consume, peek_error, R. destruct (r_peek_position r). cbn [fst snd].
  apply Rio_same. apply discard_nf.
Qed.

Lemma span_plain_nfail l : forall acc, nfail (snd (span_plain l acc)) = nfail l.
Proof.
  induction l as [|[b| |e] l IH]; intros acc; cbn [span_plain]; try reflexivity.
  destruct ((b =? 92) || (b =? 34))%bool; [reflexivity|]. rewrite IH. reflexivity.
Qed.
Lemma span_symbol_nfail l : forall acc, nfail (snd (span_symbol l acc)) = nfail l.
Proof.
  induction l as [|[b| |e] l IH]; intros acc; cbn [span_symbol]; try reflexivity.
  destruct (is_symbol_terminator b); [reflexivity|]. rewrite IH. reflexivity.
Qed.
Lemma advance_over_nf r bs rest : nf (advance_over r bs rest) = nfail rest.
Proof. unfold advance_over, nf. destruct (fold_left _ bs _). reflexivity. Qed.

Lemma sat_take_run_io : sat Rio take_run.
Proof.
  intros r. unfold take_run, R. pose proof (span_plain_nfail (rinput r) []) as Hn.
  destruct (span_plain (rinput r) []) as [run rest]. cbn [snd] in Hn.
  destruct rest as [|[b| |e] rest']; cbn [fst snd erase]; apply Rio_same;
    rewrite ?consume_nf, ?advance_over_nf; unfold nf; rewrite <- Hn; reflexivity.
Qed.
Lemma sat_take_symbol_io : sat Rio take_symbol_run.
Proof.
  intros r. unfold take_symbol_run, R. pose proof (span_symbol_nfail (rinput r) []) as Hn.
  destruct (span_symbol (rinput r) []) as [scanned rest]. cbn [fst snd erase] in *.
  apply Rio_same. rewrite advance_over_nf. unfold nf. now rewrite <- Hn.
Qed.

Lemma Rio_ret r : Rio r None r.  Proof. apply Rio_same. reflexivity. Qed.
Lemma Rio_seq r r1 x r2 : Rio r None r1 -> Rio r1 x r2 -> Rio r x r2.
Proof.
  intros [H1 H2] [H3 H4]. assert (nf r1 = nf r).
  { destruct (Nat.eq_dec (nf r1) (nf r)); [assumption|]. destruct H2 as [io Hio]; [lia|discriminate]. }
  split; [lia|]. intros Hlt. apply H4. lia.
Qed.
Lemma Rio_fuel r : Rio r (Some EFuel) r.  Proof. apply Rio_same. reflexivity. Qed.

Lemma Rio_w_ret r : Rio_w r None r.  Proof. apply Rio_weaken, Rio_ret. Qed.
Lemma Rio_w_seq r r1 x r2 : Rio_w r None r1 -> Rio_w r1 x r2 -> Rio_w r x r2.
Proof.
  intros [H1 H2] [H3 H4]. assert (nf r1 = nf r).
  { destruct (Nat.eq_dec (nf r1) (nf r)); [assumption|]. exfalso. apply H2; [lia|reflexivity]. }
  split; [lia|]. intros Hlt. apply H4. lia.
Qed.
Lemma Rio_w_fuel r : Rio_w r (Some EFuel) r.  Proof. apply Rio_weaken, Rio_fuel. Qed.
Lemma Rio_w_rec1 r e r1 x r2 : Rio_w r (Some e) r1 -> Rio_w r1 x r2 -> Rio_w r (Some e) r2.
Proof. intros [H1 _] [H3 _]. split; [lia|]. intros _. discriminate. Qed.
Lemma Rio_w_rec2 r e r1 e' r2 : Rio_w r (Some e) r1 -> Rio_w r1 (Some e') r2 -> Rio_w r (Some e') r2.
Proof. intros [H1 _] [H3 _]. split; [lia|]. intros _. discriminate. Qed.

Lemma sat_weaken {A} (m : M A) : sat Rio m -> sat Rio_w m.
Proof. intros H r. apply Rio_weaken. apply H. Qed.

Section IoTheorems.
  Variable ro : parse_options.
  Variable alpha : N -> bool.
  Variable fast : bool.
  Variable std_parse : N -> Z -> f64.

  (* reader level: a token that consumed a failure event returns that error *)
  Theorem token_io_error fuel b r :
    let '(x, r') := parse_token ro alpha fast std_parse fuel b r in
    (nf r' <= nf r)%nat /\ ((nf r' < nf r)%nat -> exists io, x = Err (EIo io)).
  Proof.
    pose proof (sat_parse_token Rio Rio_ret Rio_seq Rio_fuel sat_peek_io sat_next_io sat_eat_io sat_error_io
                  sat_peek_error_io sat_error_consume_io sat_take_run_io sat_take_symbol_io fast std_parse ro alpha fuel b r) as H.
    unfold R, Rio in H. destruct (parse_token ro alpha fast std_parse fuel b r) as [x r']. cbn [fst snd] in H.
    destruct H as [H1 H2]. split; [exact H1|]. intros Hlt. destruct (H2 Hlt) as [io Hio].
    destruct x as [a|e]; cbn [erase] in Hio; [discriminate|]. inversion Hio. eexists; reflexivity.
  Qed.

  Let values := psat_values Rio_w Rio_w_ret Rio_w_seq Rio_w_fuel
                  (sat_weaken _ sat_peek_io) (sat_weaken _ sat_next_io) (sat_weaken _ sat_eat_io)
                  (fun A c => sat_weaken _ (sat_error_io A c)) (fun A c => sat_weaken _ (sat_peek_error_io A c))
                  (fun A c => sat_weaken _ (sat_error_consume_io A c))
                  (sat_weaken _ sat_take_run_io) (sat_weaken _ sat_take_symbol_io)
                  fast std_parse ro alpha Rio_w_rec1 Rio_w_rec2.
  Let datums := psat_datums Rio_w Rio_w_ret Rio_w_seq Rio_w_fuel
                  (sat_weaken _ sat_peek_io) (sat_weaken _ sat_next_io) (sat_weaken _ sat_eat_io)
                  (fun A c => sat_weaken _ (sat_error_io A c)) (fun A c => sat_weaken _ (sat_peek_error_io A c))
                  (fun A c => sat_weaken _ (sat_error_consume_io A c))
                  (sat_weaken _ sat_take_run_io) (sat_weaken _ sat_take_symbol_io)
                  fast std_parse ro alpha Rio_w_rec1 Rio_w_rec2.

  (* parser level: whatever consumed a failure event did not succeed *)
  Theorem next_value_no_swallow fuel s :
    let '(x, s') := next_value ro alpha fast std_parse fuel s in
    (nf (rd s') <= nf (rd s))%nat /\ ((nf (rd s') < nf (rd s))%nat -> exists e, x = PErr e).
  Proof.
    pose proof (proj1 (values fuel) s) as H. unfold Rio_w in H.
    destruct (next_value ro alpha fast std_parse fuel s) as [x s']. cbn [fst snd] in H.
    destruct H as [H1 H2]. split; [exact H1|]. intros Hlt. specialize (H2 Hlt).
    destruct x as [a|e]; [exfalso; apply H2; reflexivity|eexists; reflexivity].
  Qed.

  Theorem next_datum_no_swallow fuel s :
    let '(x, s') := next_datum ro alpha fast std_parse fuel s in
    (nf (rd s') <= nf (rd s))%nat /\ ((nf (rd s') < nf (rd s))%nat -> exists e, x = PErr e).
  Proof.
    pose proof (proj1 (datums fuel) s) as H. unfold Rio_w in H.
    destruct (next_datum ro alpha fast std_parse fuel s) as [x s']. cbn [fst snd] in H.
    destruct H as [H1 H2]. split; [exact H1|]. intros Hlt. specialize (H2 Hlt).
    destruct x as [a|e]; [exfalso; apply H2; reflexivity|eexists; reflexivity].
  Qed.
End IoTheorems.

(* a failure is an error at the reader, never end of input; interrupts are retried *)
Lemma next_fail r e l : rpending r = false -> skip_intr (rinput r) = EFail e :: l ->
  exists r', r_next r = (Err (EIo e), r').
Proof. intros Hp Hs. unfold r_next. rewrite Hp, Hs. eexists; reflexivity. Qed.
Lemma peek_fail r e l : rpending r = false -> skip_intr (rinput r) = EFail e :: l ->
  exists r', r_peek r = (Err (EIo e), r').
Proof. intros Hp Hs. unfold r_peek. rewrite Hp, Hs. eexists; reflexivity. Qed.
Lemma next_eof_real r r' : rpending r = false -> r_next r = (Ok None, r') -> skip_intr (rinput r) = [].
Proof.
  intros Hp H. unfold r_next in H. rewrite Hp in H. pose proof (skip_intr_head (rinput r)) as Hh.
  destruct (skip_intr (rinput r)) as [|[b| |e] l]; try discriminate; [reflexivity|contradiction].
Qed.
Lemma interrupted_invisible_next r : rpending r = false ->
  r_next {| rk := rk r; rline := rline r; rcol := rcol r; rpending := false; rinput := EInterrupted :: rinput r |} = r_next r.
Proof.
  intros Hp. unfold r_next. cbn [rpending rinput skip_intr rk rline rcol]. rewrite Hp.
  pose proof (skip_intr_head (rinput r)) as Hh. destruct (skip_intr (rinput r)) as [|[b| |e] l]; try reflexivity. contradiction.
Qed.
