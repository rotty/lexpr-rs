(* C03: input nested more deeply than the budget is rejected with
   RecursionLimitExceeded - not merely "not accepted". Any run of 128 or more
   nesting openers ( [ #( ' ` , ,@ in any mixture, whatever follows, under
   every option set and from every source, makes the entry points return that
   error; at every call, a run of D openers exhausts a budget of D. The first
   error raised inside a nested form is the one reported (the recovery code
   runs end_seq but keeps the body's error), so the limit error raised at the
   innermost opener travels out unchanged. *)
From Coq Require Import SpecFloat Lia ZifyBool ZifyNat ZifyN.
Require Import Base Value Float PrintOptions ParseOptions Utf8 Reader Scan Num NumberOps Parser.
Require Import ReaderProofs TokenProofs RoundtripProofs OptionProofs RelFramework SpanProofs FuelProofs FloatFuel.

Inductive opener := OParen | OBracket | OVec | OQuote | OQuasi | OUnq | OUnqSplice.
Definition otext (o : opener) : bytes :=
  match o with
  | OParen => [40] | OBracket => [91] | OVec => [35; 40] | OQuote => [39] | OQuasi => [96] | OUnq => [44] | OUnqSplice => [44; 64]
  end.
Definition ohead (o : opener) : N := match o with OParen => 40 | OBracket => 91 | OVec => 35 | OQuote => 39 | OQuasi => 96 | _ => 44 end.
Definition otail (o : opener) : bytes := match o with OVec => [40] | OUnqSplice => [64] | _ => [] end.
Definition otexts (ops : list opener) : bytes := concat (map otext ops).
Lemma otext_split o : otext o = ohead o :: otail o.
Proof. destruct o; reflexivity. Qed.

Definition nesting (t : token) : Prop :=
  match t with TListOpen _ | TVecOpen _ | TQuotation _ => True | _ => False end.
Definition limit_err {A} (x : pres A) : Prop :=
  match x with PErr (XErr (ESyntax RecursionLimitExceeded _ _)) => True | _ => False end.

Section Reject.
  Variable ro : parse_options.
  Variable alpha : N -> bool.
  Variable fast : bool.
  Variable std_parse : N -> Z -> f64.
  Local Notation ptok := (parse_token ro alpha fast std_parse).
  Local Notation nv := (next_value ro alpha fast std_parse).
  Local Notation pl := (parse_list ro alpha fast std_parse).
  Local Notation pv := (parse_vector ro alpha fast std_parse).

  Lemma ohead_starts o : starts_datum (ohead o).
  Proof. destruct o; split; try reflexivity; discriminate. Qed.

  (* the token an opener starts is a nesting token; unless a ',' meets a following '@', exactly its text is consumed *)
  Lemma opener_token f o l r : at_bytes r (otext o ++ l) -> peeked r ->
    exists tok r', ptok f (ohead o) r = (Ok tok, r') /\ nesting tok /\
      ((o = OUnq -> match l with 64 :: _ => False | _ => True end) -> at_bytes r' l).
  Proof.
    intros Ha Hp. destruct o; cbn [otext app ohead] in *.
    - rewrite (token_paren_any alpha fast std_parse ro f). step. unfold ret. eexists; eexists; split; [reflexivity|]. split; [exact I|auto].
    - rewrite (token_bracket_any alpha fast std_parse ro f). step. destruct (ro_brackets ro); unfold ret; eexists; eexists; (split; [reflexivity|]); (split; [exact I|auto]).
    - unfold Parser.parse_token. change (35 =? 35) with true. cbv iota. step. step. cbv beta iota.
      change (40 =? 116) with false. change (40 =? 102) with false. change (40 =? 110) with false. change (40 =? 40) with true. cbv iota.
      unfold ret. eexists; eexists; split; [reflexivity|]. split; [exact I|auto].
    - rewrite (token_quote_any alpha fast std_parse ro f). step. unfold ret. eexists; eexists; split; [reflexivity|]. split; [exact I|auto].
    - rewrite (token_quasiquote_any alpha fast std_parse ro f). step. unfold ret. eexists; eexists; split; [reflexivity|]. split; [exact I|auto].
    - rewrite (token_unquote_any alpha fast std_parse ro f). step. destruct l as [|nx l'].
      + step. change (0 =? 64) with false. cbv iota. unfold ret. eexists; eexists; split; [reflexivity|]. split; [exact I|auto].
      + step. destruct (nx =? 64) eqn:E64.
        * step. unfold ret. eexists; eexists; split; [reflexivity|]. split; [exact I|].
          intros Hc. exfalso. apply N.eqb_eq in E64. subst nx. exact (Hc eq_refl).
        * unfold ret. eexists; eexists; split; [reflexivity|]. split; [exact I|auto].
    - rewrite (token_unquote_any alpha fast std_parse ro f). step. step. change (64 =? 64) with true. cbv iota. step.
      unfold ret. eexists; eexists; split; [reflexivity|]. split; [exact I|auto].
  Qed.

  Definition mk (r : reader) (D : N) : pstate := {| rd := r; depth := D |}.

  Lemma enter_fails r : exists l c, enter_nesting (mk r 1) = (PErr (XErr (ESyntax RecursionLimitExceeded l c)), mk r 1).
  Proof.
    destruct (DepthProofs.enter_nesting_spec (mk r 1) ltac:(unfold DepthProofs.depth_ok; cbn; lia)) as [[_ H]|[H _]]; [exact H|cbn in H; lia].
  Qed.

  Lemma enter_ok r D : 1 < D -> enter_nesting (mk r D) = (POk tt, mk r (D - 1)).
  Proof. exact (RoundtripProofs.enter_ok r D). Qed.
  Lemma inc_ok r D : D < 255 -> inc_depth (mk r D) = (POk tt, mk r (D + 1)).
  Proof. exact (RoundtripProofs.inc_ok r D). Qed.
  Lemma nv_rem f s : (rem (rd (snd (nv f s))) <= rem (rd s))%nat.
  Proof.
    exact (proj1 (psat_values Rrem Rrem_ret Rrem_seq Rrem_fuel rem_peek rem_next rem_eat rem_error rem_peek_error rem_error_consume
                    rem_take_run rem_take_symbol fast std_parse ro alpha Rrem_rec1 Rrem_rec2 f) s).
  Qed.

  Lemma is_closer_ohead o : is_closer (ohead o) = false.
  Proof. destruct o; reflexivity. Qed.
  Lemma ohead_not_dot o : (ohead o =? 46) = false.
  Proof. destruct o; reflexivity. Qed.
  Lemma ohead_not_at o : ohead o <> 64.
  Proof. destruct o; discriminate. Qed.

  Lemma at_bytes_rem r l : at_bytes r l -> rem r = length l.
  Proof. unfold at_bytes, rem, bytes_events. intros ->. apply map_length. Qed.

  Lemma nest_error {A B} (body : PM A) f close (k : A -> PM B) c l cl r D s1 : 2 <= D <= 128 ->
    body (mk r (D - 1)) = (PErr (XErr (ESyntax c l cl)), s1) -> depth s1 = D - 1 -> (S (rem (rd s1)) < f)%nat ->
    exists s', pbind enter_nesting (fun _ => pbind (attempt body) (fun x => pbind inc_depth (fun _ =>
                 pbind (attempt (liftR (end_seq f close))) (fun e => pbind (both x e) k)))) (mk r D)
               = (PErr (XErr (ESyntax c l cl)), s') /\ depth s' = D.
  Proof.
    clear ro alpha fast std_parse. intros HD Eb Hd Hf. rewrite pbind_unfold, (enter_ok r D ltac:(lia)), pbind_unfold, attempt_unfold, Eb.
    destruct s1 as [r1 d]. cbn [depth rd] in *. subst d. rewrite pbind_unfold.
    change {| rd := r1; depth := D - 1 |} with (mk r1 (D - 1)). rewrite (inc_ok r1 (D - 1) ltac:(lia)). replace (D - 1 + 1) with D by lia.
    rewrite pbind_unfold, attempt_unfold. unfold liftR, mk. cbn [rd depth].
    destruct (ok_end_seq f close (rem r1) Hf r1 (le_n _)) as [Hne _].
    destruct (end_seq f close r1) as [[u|[c2 l2 cl2|io|]] r']; cbn [fst] in Hne; [| | |exfalso; apply Hne; reflexivity];
      rewrite pbind_unfold; cbn [both pfail fst snd]; eexists; split; reflexivity.
  Qed.

  Lemma otexts_cons o ops rest : otexts (o :: ops) ++ rest = ohead o :: otail o ++ otexts ops ++ rest.
  Proof. unfold otexts. cbn [map concat]. rewrite otext_split, <- app_assoc. reflexivity. Qed.

  Lemma body_first_error f close o l r D : (1 <= f)%nat -> at_bytes r (ohead o :: l) ->
    exists r', at_bytes r' (ohead o :: l) /\
      forall e s', nv f (mk r' D) = (PErr e, s') ->
        pl (S f) close [] (mk r D) = (PErr e, s') /\ pv (S f) close [] (mk r D) = (PErr e, s').
  Proof.
    intros Hf Ha. destruct (ws_here f r (ohead o) l Hf Ha (ohead_starts o)) as (r' & Ew & Ha' & _).
    exists r'. split; [exact Ha'|]. intros e s' E.
    split; [cbn [Parser.parse_list]|cbn [Parser.parse_vector]]; rewrite pbind_unfold; unfold liftR at 1; cbn [rd depth mk];
      rewrite Ew, is_closer_ohead, ?ohead_not_dot; fold (mk r' D); rewrite (pbind_unfold (nv f)), E; reflexivity.
  Qed.

  Theorem openers_exhaust : forall ops f r rest, ops <> [] -> N.of_nat (length ops) <= 128 ->
    (2 * length ops + length (otexts ops ++ rest) + 3 <= f)%nat -> at_bytes r (otexts ops ++ rest) ->
    exists l c s', nv f (mk r (N.of_nat (length ops))) = (PErr (XErr (ESyntax RecursionLimitExceeded l c)), s') /\
                   depth s' = N.of_nat (length ops).
  Proof.
    induction ops as [|o ops IH]; intros f r rest Hne HD Hf Ha; [contradiction|].
    set (D := N.of_nat (length (o :: ops))) in *.
    destruct f as [|f1]; [cbn in Hf; lia|]. cbn [Parser.next_value].
    rewrite otexts_cons in Ha, Hf. cbn [length] in Hf. rewrite app_length in Hf.
    destruct (ws_here f1 r (ohead o) _ ltac:(lia) Ha (ohead_starts o)) as (r1 & Ew & Ha1 & Hp1 & _).
    rewrite pbind_unfold. unfold liftR at 1. cbn [rd depth mk]. rewrite Ew. cbn [mk].
    assert (Ha1' : at_bytes r1 (otext o ++ otexts ops ++ rest)) by (rewrite otext_split; exact Ha1).
    destruct (opener_token f1 o (otexts ops ++ rest) r1 Ha1' Hp1) as (tok & r2 & Et & Hnest & Hl).
    rewrite pbind_unfold. unfold liftR at 1. cbn [rd depth]. rewrite Et.
    change {| rd := r2; depth := D |} with (mk r2 D).
    destruct ops as [|o2 ops'].
    - (* the innermost opener: the budget is spent *)
      change D with 1. destruct (enter_fails r2) as (l & c & Ee).
      destruct tok; try contradiction; rewrite pbind_unfold, Ee; exists l, c, (mk r2 1); split; reflexivity.
    - assert (HD2 : 2 <= D <= 128) by (unfold D in *; cbn [length] in *; lia).
      assert (Ha2 : at_bytes r2 (otexts (o2 :: ops') ++ rest)).
      { apply Hl. intros ->. unfold otexts. cbn [map concat]. destruct o2; exact I. }
      replace (N.of_nat (length (o2 :: ops'))) with (D - 1) in IH by (unfold D; cbn [length]; lia).
      cbn [length] in Hf, IH.
      (* the body of a list or vector fails at its first datum, by the induction hypothesis *)
      assert (Hbody : forall close, exists l cl s3, depth s3 = D - 1 /\ (S (rem (rd s3)) < f1)%nat /\
                pl f1 close [] (mk r2 (D - 1)) = (PErr (XErr (ESyntax RecursionLimitExceeded l cl)), s3) /\
                pv f1 close [] (mk r2 (D - 1)) = (PErr (XErr (ESyntax RecursionLimitExceeded l cl)), s3)).
      { intros close. destruct f1 as [|f2]; [lia|]. pose proof Ha2 as Ha2'. rewrite otexts_cons in Ha2'.
        destruct (body_first_error f2 close o2 _ r2 (D - 1) ltac:(lia) Ha2') as (r3 & Ha3 & Hb). rewrite <- otexts_cons in Ha3.
        destruct (IH f2 r3 rest ltac:(discriminate) ltac:(lia) ltac:(lia) Ha3) as (l & cl & s3 & E3 & Hdep).
        pose proof (nv_rem f2 (mk r3 (D - 1))) as Hrem. rewrite E3 in Hrem. cbn [snd rd mk] in Hrem.
        rewrite (at_bytes_rem r3 _ Ha3) in Hrem. exists l, cl, s3. split; [exact Hdep|]. split; [lia|exact (Hb _ _ E3)]. }
      destruct tok as [| | | | | | | | |close|name|close|]; try contradiction.
      + (* list *)
        destruct (Hbody close) as (l & cl & s3 & Hdep & Hrem & E3 & _).
        destruct (nest_error _ f1 close (fun l0 => pret (Some l0)) _ l cl r2 D s3 HD2 E3 Hdep Hrem) as (s4 & E4 & Hd4).
        exists l, cl, s4. split; assumption.
      + (* quotation *)
        rewrite pbind_unfold, (enter_ok r2 D ltac:(lia)). rewrite pbind_unfold, attempt_unfold.
        destruct (IH f1 r2 rest ltac:(discriminate) ltac:(lia) ltac:(lia) Ha2) as (l & cl & s3 & E3 & Hdep).
        rewrite E3. destruct s3 as [r3 d3]. cbn [depth] in Hdep. subst d3. rewrite pbind_unfold.
        change {| rd := r3; depth := D - 1 |} with (mk r3 (D - 1)). rewrite (inc_ok r3 (D - 1) ltac:(lia)). replace (D - 1 + 1) with D by lia.
        rewrite pbind_unfold. cbn [lift pfail]. exists l, cl, (mk r3 D). split; reflexivity.
      + (* vector *)
        destruct (Hbody close) as (l & cl & s3 & Hdep & Hrem & _ & E3).
        destruct (nest_error _ f1 close (fun els => pret (Some (Vector els))) _ l cl r2 D s3 HD2 E3 Hdep Hrem) as (s4 & E4 & Hd4).
        exists l, cl, s4. split; assumption.
  Qed.

  Lemma otexts_app a b : otexts (a ++ b) = otexts a ++ otexts b.
  Proof. unfold otexts. rewrite map_app, concat_app. reflexivity. Qed.

  Theorem over_deep_rejected k ops rest : (128 <= length ops)%nat ->
    exists l c, from_trait ro alpha fast std_parse k (bytes_events (otexts ops ++ rest)) = PErr (XErr (ESyntax RecursionLimitExceeded l c)).
  Proof.
    intros Hlen. rewrite <- (firstn_skipn 128 ops), otexts_app, <- app_assoc.
    set (ops1 := firstn 128 ops). set (rest' := otexts (skipn 128 ops) ++ rest).
    assert (H128 : length ops1 = 128%nat) by (unfold ops1; rewrite firstn_length; lia).
    unfold from_trait. cbv zeta. set (inp := bytes_events (otexts ops1 ++ rest')).
    assert (Hinp : length inp = length (otexts ops1 ++ rest')) by (unfold inp, bytes_events; apply map_length).
    destruct (openers_exhaust ops1 (fuel_for inp) (mk_reader k inp) rest'
                ltac:(intros E; rewrite E in H128; discriminate) ltac:(rewrite H128; reflexivity)
                ltac:(unfold fuel_for; rewrite H128, Hinp; lia) ltac:(reflexivity)) as (l & c & s' & E & Hd).
    exists l, c. rewrite pbind_unfold. unfold expect_value. rewrite pbind_unfold.
    change (init_state k inp) with (mk (mk_reader k inp) initial_depth).
    rewrite H128 in E. change (N.of_nat 128) with initial_depth in E. rewrite E. reflexivity.
  Qed.
End Reject.
