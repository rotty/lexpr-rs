(* The reader on pure byte input: what peek / next / discard do, for all three
   source kinds. *)
From Coq Require Import ZifyBool ZifyNat.
Require Import Base Utf8 Reader Scan.

(* the reader is positioned at the byte string [l] (no interrupts, no failures) *)
Definition at_bytes (r : reader) (l : bytes) : Prop := rinput r = bytes_events l.
(* a reader that may be discarded from: for IoRead the head byte has been peeked *)
Definition peeked (r : reader) : Prop := rk r = SrcIo -> rpending r = true.

Lemma skip_intr_bytes l : skip_intr (bytes_events l) = bytes_events l.
Proof. destruct l; reflexivity. Qed.

Lemma m_peek_nil r : at_bytes r [] -> exists r', peek r = (Ok None, r') /\ at_bytes r' [] /\ rk r' = rk r.
Proof.
  unfold at_bytes, peek, r_peek. intros H. rewrite H. cbn [bytes_events map skip_intr].
  destruct (rpending r); eexists; (split; [reflexivity|]); unfold at_bytes; cbn; auto.
Qed.

Lemma m_peek_cons r b l : at_bytes r (b :: l) ->
  exists r', peek r = (Ok (Some b), r') /\ at_bytes r' (b :: l) /\ peeked r' /\ rk r' = rk r.
Proof.
  unfold at_bytes, peek, r_peek, peeked. intros H. rewrite H. cbn [bytes_events map skip_intr].
  destruct (rpending r) eqn:E.
  - exists r. repeat split; auto.
  - eexists. split; [reflexivity|]. cbn. repeat split; auto.
Qed.

Lemma m_next_nil r : at_bytes r [] -> exists r', next_char r = (Ok None, r') /\ at_bytes r' [] /\ rk r' = rk r.
Proof.
  unfold at_bytes, next_char, r_next. intros H. rewrite H. cbn [bytes_events map skip_intr].
  destruct (rpending r); eexists; (split; [reflexivity|]); unfold at_bytes; cbn; auto.
Qed.

Lemma m_next_cons r b l : at_bytes r (b :: l) ->
  exists r', next_char r = (Ok (Some b), r') /\ at_bytes r' l /\ rk r' = rk r.
Proof.
  unfold at_bytes, next_char, r_next. intros H. rewrite H. cbn [bytes_events map skip_intr].
  destruct (rpending r); eexists; (split; [reflexivity|]); unfold consume;
    destruct (advance (rline r) (rcol r) b); cbn; auto.
Qed.

Lemma m_eat r b l : at_bytes r (b :: l) -> peeked r ->
  exists r', eat_char r = (Ok tt, r') /\ at_bytes r' l /\ rk r' = rk r.
Proof.
  unfold at_bytes, peeked. intros H Hp. exists (r_discard r). split; [reflexivity|].
  unfold r_discard. rewrite H. cbn [bytes_events map].
  destruct (rk r) eqn:Ek; [| |rewrite (Hp eq_refl)];
    unfold consume; destruct (advance (rline r) (rcol r) b); cbn; auto.
Qed.

Lemma m_peek_or_null_cons r b l : at_bytes r (b :: l) ->
  exists r', peek_or_null r = (Ok b, r') /\ at_bytes r' (b :: l) /\ peeked r' /\ rk r' = rk r.
Proof.
  intros H. destruct (m_peek_cons r b l H) as (r' & E & Ha & Hp & Hk).
  exists r'. unfold peek_or_null, bind, ret. rewrite E. auto.
Qed.
Lemma m_peek_or_null_nil r : at_bytes r [] ->
  exists r', peek_or_null r = (Ok 0, r') /\ at_bytes r' [] /\ rk r' = rk r.
Proof.
  intros H. destruct (m_peek_nil r H) as (r' & E & Ha & Hk).
  exists r'. unfold peek_or_null, bind, ret. rewrite E. auto.
Qed.

Lemma bind_ok {A B} (m : M A) (f : A -> M B) r a r' : m r = (Ok a, r') -> bind m f r = f a r'.
Proof. intros E. unfold bind. now rewrite E. Qed.
