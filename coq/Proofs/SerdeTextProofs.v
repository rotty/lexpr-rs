(* C04, the text path: what the serializer produces for data of a float-free
   type whose field and variant names are plain identifiers lies in the class
   of values that C01's text round trip covers, and is nested no deeper than
   the type is. *)
From Coq Require Import SpecFloat ZifyBool ZifyNat ZifyN.
Require Import Base Value Float NumberOps ListOps Utf8 Num SerdeModel ListProofs SerdeProofs.
Require Import Scan Depth ScanProofs Utf8Proofs CharStrProofs RoundtripProofs.

Lemma list_max_cons x l : list_max (x :: l) = Nat.max x (list_max l).
Proof. reflexivity. Qed.
Lemma list_max_nil : list_max [] = 0%nat.
Proof. reflexivity. Qed.
Lemma rdepth_rest_build vs : rdepth_rest (build vs Null) = list_max (map rdepth vs).
Proof. induction vs as [|x vs IH]; cbn [build rdepth_rest map]; rewrite ?list_max_cons, ?list_max_nil; [reflexivity|]. now rewrite IH. Qed.
Lemma rdepth_build vs : (rdepth (build vs Null) <= S (list_max (map rdepth vs)))%nat.
Proof.
  destruct vs as [|x vs]; cbn [build rdepth map]; rewrite ?list_max_cons, ?list_max_nil; [lia|].
  rewrite rdepth_rest_build. lia.
Qed.

Section Class.
  Variable alpha : N -> bool.
  Variable is_f32 : f64 -> bool.
  Local Notation ser := (ser is_f32).
  Local Notation rt_ok := (rt_ok alpha).
  Local Notation plain_symbol := (plain_symbol alpha).

  Lemma rt_ok_build vs : Forall rt_ok vs -> rt_ok (build vs Null).
  Proof. induction 1 as [|x vs Hx _ IH]; cbn [build RoundtripProofs.rt_ok]; [exact I|split; assumption]. Qed.
  Lemma rt_ok_vec vs : Forall rt_ok vs -> rt_ok (Vector vs).
  Proof. rewrite rt_ok_vector. induction 1 as [|x vs Hx _ IH]; cbn [all_rt_ok]; [exact I|split; assumption]. Qed.

  (* the types: no floats, integers of at most 64 bits, names that the
     printer writes bare and the reader takes for symbols *)
  Fixpoint text_ty (t : ty) : Prop :=
    match t with
    | TyF32 | TyF64 => False
    | TyInt _ bits => bits <= 64
    | TyOption t' | TySeq t' | TyNewtype t' => text_ty t'
    | TyTuple ts => (fix go (l : list ty) : Prop := match l with [] => True | x :: l' => text_ty x /\ go l' end) ts
    | TyMap k v => text_ty k /\ text_ty v
    | TyStruct fs =>
        (fix go (l : list (bytes * ty)) : Prop :=
           match l with [] => True | f :: l' => (plain_symbol (fst f) /\ text_ty (snd f)) /\ go l' end) fs
    | TyEnum vs =>
        (fix go (l : list (bytes * variant)) : Prop :=
           match l with [] => True | v :: l' => (plain_symbol (fst v) /\ text_var (snd v)) /\ go l' end) vs
    | _ => True
    end
  with text_var (v : variant) : Prop :=
    match v with
    | VUnit => True
    | VNewtype t => text_ty t
    | VTuple ts => (fix go (l : list ty) : Prop := match l with [] => True | x :: l' => text_ty x /\ go l' end) ts
    | VStruct fs =>
        (fix go (l : list (bytes * ty)) : Prop :=
           match l with [] => True | f :: l' => (plain_symbol (fst f) /\ text_ty (snd f)) /\ go l' end) fs
    end.

  (* the data: what the Rust types char, String and u8 guarantee *)
  Fixpoint text_data (d : data) : Prop :=
    match d with
    | DChar c => is_scalar c = true
    | DString s => utf8_valid s = true
    | DBytes b => octets_ok b
    | DSome x | DNewtype x => text_data x
    | DSeq l | DTuple l | DStruct l =>
        (fix go (l : list data) : Prop := match l with [] => True | x :: l' => text_data x /\ go l' end) l
    | DMap l =>
        (fix go (l : list (data * data)) : Prop :=
           match l with [] => True | e :: l' => (text_data (fst e) /\ text_data (snd e)) /\ go l' end) l
    | DEnum _ p => text_payload p
    | _ => True
    end
  with text_payload (p : payload) : Prop :=
    match p with
    | PUnit => True
    | PNewtype x => text_data x
    | PTuple l | PStruct l =>
        (fix go (l : list data) : Prop := match l with [] => True | x :: l' => text_data x /\ go l' end) l
    end.
  Definition all_text_data : list data -> Prop :=
    fix go (l : list data) : Prop := match l with [] => True | x :: l' => text_data x /\ go l' end.
  Definition all_text_entries : list (data * data) -> Prop :=
    fix go (l : list (data * data)) : Prop :=
      match l with [] => True | e :: l' => (text_data (fst e) /\ text_data (snd e)) /\ go l' end.
  Definition all_text_ty : list ty -> Prop :=
    fix go (l : list ty) : Prop := match l with [] => True | x :: l' => text_ty x /\ go l' end.
  Definition all_text_fields : list (bytes * ty) -> Prop :=
    fix go (l : list (bytes * ty)) : Prop :=
      match l with [] => True | f :: l' => (plain_symbol (fst f) /\ text_ty (snd f)) /\ go l' end.
  Definition all_text_vars : list (bytes * variant) -> Prop :=
    fix go (l : list (bytes * variant)) : Prop :=
      match l with [] => True | v :: l' => (plain_symbol (fst v) /\ text_var (snd v)) /\ go l' end.

  (* a sufficient condition on names that can be computed: Rust identifiers
     and their snake/kebab-case renamings (ASCII, a letter or '_' first, no
     whitespace, parenthesis, bracket or ';') *)
  Definition ident_b (s : bytes) : bool :=
    match s with
    | [] => false
    | c :: _ => (is_ascii_alpha c || (c =? 95)) && forallb (fun b => (b <? 128) && negb (Scan.is_symbol_terminator b)) s
    end.
  Lemma ident_plain s : ident_b s = true -> plain_symbol s.
  Proof.
    destruct s as [|c s']; [discriminate|]. unfold ident_b. intros H.
    apply andb_prop in H. destruct H as [Hc Hall].
    assert (Hf : Forall (fun b => b < 128 /\ Scan.is_symbol_terminator b = false) (c :: s')).
    { apply Forall_forall. intros b Hb. pose proof (proj1 (forallb_forall _ _) Hall b Hb) as Hx.
      apply andb_prop in Hx. destruct Hx as [H1 H2]. split; [lia|]. now destruct (Scan.is_symbol_terminator b). }
    unfold RoundtripProofs.plain_symbol. split; [|split].
    - unfold ScanProofs.no_terminator. eapply Forall_impl; [|exact Hf]. intros b [_ Hb]; exact Hb.
    - unfold ScanProofs.symbol_ok. split.
      + cbn [beq_bytes]. destruct (c =? 46) eqn:E; [|reflexivity]. apply N.eqb_eq in E. subst c. discriminate Hc.
      + apply Utf8Proofs.ascii_valid. unfold Utf8Proofs.all_ascii. eapply Forall_impl; [|exact Hf]. intros b [Hb _]; exact Hb.
    - left. apply orb_prop in Hc. destruct Hc as [Hc|Hc]; [left; exact Hc|].
      apply N.eqb_eq in Hc. subst c. right; left. cbn. tauto.
  Qed.

  Definition cls (t : ty) (d : data) (v : value) : Prop := text_ty t -> text_data d -> rt_ok v.
  Definition cls_var (var : variant) (name : bytes) (p : payload) (v : value) : Prop :=
    text_var var -> plain_symbol name -> text_payload p -> rt_ok v.

  Lemma int_in_class s bits z : bits <= 64 -> int_in_range s bits z = true -> rt_ok (ser_int s bits z).
  Proof.
    intros Hb Hr. unfold ser_int, int_in_range in *.
    assert (Hp63 : (2 ^ (Z.of_N bits - 1) <= 2 ^ 63)%Z).
    { destruct (N.eq_dec bits 0) as [->|Hn]; [cbn; lia|]. apply Z.pow_le_mono_r; lia. }
    assert (Hp64 : (2 ^ Z.of_N bits <= 2 ^ 64)%Z) by (apply Z.pow_le_mono_r; lia).
    change (2 ^ 63)%Z with 9223372036854775808%Z in Hp63.
    change (2 ^ 64)%Z with 18446744073709551616%Z in Hp64.
    destruct s; cbn [orb].
    - unfold num_from_signed. destruct (0 <=? z)%Z eqn:Ez; cbn [RoundtripProofs.rt_ok]; unfold u64_MAX, i64_min; lia.
    - destruct (negb (bits =? 64)) eqn:E64.
      + unfold num_from_signed. destruct (0 <=? z)%Z eqn:Ez; cbn [RoundtripProofs.rt_ok]; unfold u64_MAX, i64_min; lia.
      + unfold num_from_unsigned. cbn [RoundtripProofs.rt_ok]. unfold u64_MAX. lia.
  Qed.

  Lemma seq_in_class t l vs : text_ty t -> Forall2 (cls t) l vs -> all_text_data l -> Forall rt_ok vs.
  Proof. intros Ht. induction 1 as [|x v l vs Hx _ IH]; intros Hd; constructor; destruct Hd; auto. Qed.
  Lemma tuple_in_class ts l vs : Forall3 cls ts l vs -> all_text_ty ts -> all_text_data l -> Forall rt_ok vs.
  Proof. induction 1 as [|t x v ts l vs Hx _ IH]; intros Ht Hd; constructor; destruct Ht, Hd; auto. Qed.
  Lemma map_in_class kt vt l vs : text_ty kt -> text_ty vt -> Forall2 (entry_rel cls kt vt) l vs ->
    all_text_entries l -> Forall rt_ok vs.
  Proof.
    intros Hk Hv. induction 1 as [|e w l vs (kv & xv & -> & Hkv & Hxv) _ IH]; intros Hd; constructor;
      destruct Hd as [[Hdk Hdx] Hl]; [cbn [RoundtripProofs.rt_ok]|]; auto.
  Qed.
  Lemma fields_in_class fs l vs : Forall3 (field_rel cls) fs l vs -> all_text_fields fs -> all_text_data l ->
    Forall rt_ok vs.
  Proof.
    induction 1 as [|f x w fs l vs (v & -> & Hx) _ IH]; intros Ht Hd; constructor;
      destruct Ht as [[Hn Ht1] Ht2], Hd as [Hd1 Hd2]; [cbn [RoundtripProofs.rt_ok]|]; auto.
  Qed.
  Lemma text_var_of name vs var : var_of name vs = Some var -> all_text_vars vs -> plain_symbol name /\ text_var var.
  Proof.
    induction vs as [|[n var'] vs IH]; cbn [var_of]; [discriminate|]. intros H [[Hn Hv] Hvs]. cbn [fst snd] in *.
    destruct (beq_bytes n name) eqn:E; [|auto]. apply beq_bytes_eq in E. injection H as <-. subst n. auto.
  Qed.

  Theorem ser_in_class : forall t, text_ty t -> forall d v, text_data d -> ser t d = Some v -> rt_ok v.
  Proof.
    intros t Ht d v Hd H. revert Ht Hd. change (cls t d v). revert t d v H.
    apply (ser_ind is_f32 cls cls_var); unfold cls, cls_var.
    - (* bool *) intros b _ _. exact I.
    - (* int *) intros s b z Hr Hb _. now apply int_in_class.
    - (* f32 *) intros f _ [].
    - (* f64 *) intros f [].
    - (* char *) intros c _ H. exact H.
    - (* string *) intros s _ H. exact H.
    - (* bytes *) intros b _ H. exact H.
    - (* unit *) intros _ _. exact I.
    - (* none *) intros t _ _. exact I.
    - (* some *) intros t x v IH Ht Hd. cbn [RoundtripProofs.rt_ok]. auto.
    - (* seq *) intros t l vs Hall Ht Hd. apply rt_ok_build. exact (seq_in_class t l vs Ht Hall Hd).
    - (* tuple *) intros ts l vs Hall Ht Hd. apply rt_ok_vec. exact (tuple_in_class ts l vs Hall Ht Hd).
    - (* map *) intros kt vt l vs Hall [Hk Hv] Hd. apply rt_ok_build. exact (map_in_class kt vt l vs Hk Hv Hall Hd).
    - (* struct *) intros fs l vs Hall Ht Hd. apply rt_ok_build. exact (fields_in_class fs l vs Hall Ht Hd).
    - (* newtype *) intros t x v IH Ht Hd. exact (IH Ht Hd).
    - (* enum *) intros vs name var p v Hvar HQ Ht Hd. destruct (text_var_of name vs var Hvar Ht) as [Hn Hv]. exact (HQ Hv Hn Hd).
    - intros name _ Hn _. exact Hn.
    - intros name t x v IH Ht Hn Hd. cbn [RoundtripProofs.rt_ok]. auto.
    - intros name ts l vs Hall Ht Hn Hd. cbn [RoundtripProofs.rt_ok]. split; [exact Hn|].
      apply rt_ok_build. exact (tuple_in_class ts l vs Hall Ht Hd).
    - intros name fs l vs Hall Ht Hn Hd. cbn [RoundtripProofs.rt_ok]. split; [exact Hn|].
      apply rt_ok_build. exact (fields_in_class fs l vs Hall Ht Hd).
  Qed.

End Class.

Section Shallow.
  Variable is_f32 : f64 -> bool.
  Local Notation ser := (ser is_f32).

  Fixpoint tdepth (t : ty) : nat :=
    match t with
    | TyOption t' | TySeq t' => S (tdepth t')
    | TyNewtype t' => tdepth t'
    | TyTuple ts => S (list_max (map tdepth ts))
    | TyMap k v => S (S (Nat.max (tdepth k) (tdepth v)))
    | TyStruct fs => S (S (list_max (map (fun f => tdepth (snd f)) fs)))
    | TyEnum vs => S (list_max (map (fun v => vdepth (snd v)) vs))
    | _ => 1
    end
  with vdepth (v : variant) : nat :=
    match v with
    | VUnit => 0
    | VNewtype t => tdepth t
    | VTuple ts => list_max (map tdepth ts)
    | VStruct fs => S (list_max (map (fun f => tdepth (snd f)) fs))
    end.

  Definition shallow (t : ty) (d : data) (v : value) : Prop := (rdepth v <= tdepth t)%nat.
  Definition shallow_var (var : variant) (name : bytes) (p : payload) (v : value) : Prop :=
    (rdepth v <= S (vdepth var))%nat.

  Lemma seq_shallow t l vs : Forall2 (shallow t) l vs -> (list_max (map rdepth vs) <= tdepth t)%nat.
  Proof.
    induction 1 as [|x v l vs Hx _ IH]; cbn [map]; rewrite ?list_max_cons, ?list_max_nil; unfold shallow in *; lia.
  Qed.
  Lemma tuple_shallow ts l vs : Forall3 shallow ts l vs -> (list_max (map rdepth vs) <= list_max (map tdepth ts))%nat.
  Proof.
    induction 1 as [|t x v ts l vs Hx _ IH]; cbn [map]; rewrite ?list_max_cons, ?list_max_nil; unfold shallow in *; lia.
  Qed.
  Lemma map_shallow kt vt l vs : Forall2 (entry_rel shallow kt vt) l vs ->
    (list_max (map rdepth vs) <= S (Nat.max (tdepth kt) (tdepth vt)))%nat.
  Proof.
    induction 1 as [|e w l vs (kv & xv & -> & Hk & Hx) _ IH]; cbn [map rdepth]; rewrite ?list_max_cons, ?list_max_nil;
      [lia|]. pose proof (rdepth_rest_le xv). unfold shallow in *. lia.
  Qed.
  Lemma fields_shallow fs l vs : Forall3 (field_rel shallow) fs l vs ->
    (list_max (map rdepth vs) <= S (list_max (map (fun f => tdepth (snd f)) fs)))%nat.
  Proof.
    induction 1 as [|f x w fs l vs (v & -> & Hx) _ IH]; cbn [map rdepth]; rewrite ?list_max_cons, ?list_max_nil;
      [lia|]. pose proof (rdepth_rest_le v). unfold shallow in *. lia.
  Qed.
  Lemma vdepth_var_of name vs var : var_of name vs = Some var ->
    (vdepth var <= list_max (map (fun x => vdepth (snd x)) vs))%nat.
  Proof.
    induction vs as [|[n var'] vs IH]; cbn [var_of map snd]; [discriminate|]. rewrite list_max_cons.
    destruct (beq_bytes n name); [intros [= ->]; lia|intros H; specialize (IH H); lia].
  Qed.

  Theorem ser_shallow : forall t d v, ser t d = Some v -> (rdepth v <= tdepth t)%nat.
  Proof.
    apply (ser_ind is_f32 shallow shallow_var); unfold shallow, shallow_var.
    (* bool, f64, char, string, bytes, unit, none *)
    1, 4-9: intros; cbn; lia.
    - (* int *) intros s b z _. unfold ser_int. destruct (s || negb (b =? 64)); cbn; lia.
    - (* f32 *) intros; cbn; lia.
    - (* some *) intros t x v IH. cbn [rdepth rdepth_rest tdepth]. lia.
    - (* seq *) intros t l vs Hall. cbn [tdepth]. unfold value_list.
      pose proof (rdepth_build vs). pose proof (seq_shallow t l vs Hall). lia.
    - (* tuple *) intros ts l vs Hall. cbn [tdepth rdepth]. pose proof (tuple_shallow ts l vs Hall). lia.
    - (* map *) intros kt vt l vs Hall. cbn [tdepth]. unfold value_list.
      pose proof (rdepth_build vs). pose proof (map_shallow kt vt l vs Hall). lia.
    - (* struct *) intros fs l vs Hall. cbn [tdepth]. unfold value_list.
      pose proof (rdepth_build vs). pose proof (fields_shallow fs l vs Hall). lia.
    - (* newtype *) intros t x v IH. exact IH.
    - (* enum *) intros vs name var p v Hvar HQ. cbn [tdepth]. pose proof (vdepth_var_of name vs var Hvar). lia.
    - intros name. cbn. lia.
    - intros name t x v IH. cbn [rdepth vdepth]. pose proof (rdepth_rest_le v). lia.
    - intros name ts l vs Hall. cbn [rdepth vdepth]. unfold value_list. rewrite rdepth_rest_build.
      pose proof (tuple_shallow ts l vs Hall). lia.
    - intros name fs l vs Hall. cbn [rdepth vdepth]. unfold value_list. rewrite rdepth_rest_build.
      pose proof (fields_shallow fs l vs Hall). lia.
  Qed.
End Shallow.
