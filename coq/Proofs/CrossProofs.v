(* C06 / C11: a byte slice and an io::Read stream of the same bytes are read
   alike. SliceRead and IoRead share peek / next but differ in three ways: the
   symbol and string scanners (bulk scans over the slice against a byte-at-a-
   time loop on fuel), discard (IoRead only drops a byte it has peeked) and the
   position attached to a peek_error when nothing is pending. The judgement xs
   runs one piece of the model on a slice reader and on a stream reader at the
   same place of the same bytes: unless the stream run exhausts its fuel, both
   return the same value or errors with the same code, and end at the same
   place again; xsat is the same on a pending byte, where a discard is justified. *)
From Coq Require Import SpecFloat Lia ZifyBool ZifyNat ZifyN.
Require Import Base Value Float PrintOptions ParseOptions Utf8 Reader Scan Num NumberOps Parser.
Require Import RelFramework SpanProofs.

Definition isb (e : event) : Prop := match e with EByte _ => True | _ => False end.
Definition allb (l : list event) : Prop := Forall isb l.
Lemma allb_tl e l : allb (e :: l) -> allb l.
Proof. intros H. inversion H. assumption. Qed.
Lemma allb_skip l : allb l -> skip_intr l = l.
Proof. destruct l as [|[b| |e] l]; intros H; try reflexivity; inversion H as [|? ? H1 H2]; destruct H1. Qed.

Definition rel (r1 r2 : reader) : Prop :=
  rk r1 = SrcSlice /\ rk r2 = SrcIo /\ rline r1 = rline r2 /\ rcol r1 = rcol r2 /\
  rinput r1 = rinput r2 /\ allb (rinput r2).

(* same error up to the position attached to it; the fuel artefact is never "the same" *)
Definition rerr (e1 e2 : perr) : Prop :=
  match e1, e2 with
  | ESyntax c1 _ _, ESyntax c2 _ _ => c1 = c2
  | EIo a, EIo b => a = b
  | _, _ => False
  end.
Definition rres {A} (x1 x2 : res A) : Prop :=
  match x1, x2 with
  | Ok a, Ok b => a = b
  | Err e1, Err e2 => rerr e1 e2
  | _, _ => False
  end.

Definition xc {A} (m : M A) (r1 r2 : reader) : Prop :=
  fst (m r2) = Err EFuel \/ (rres (fst (m r1)) (fst (m r2)) /\ rel (snd (m r1)) (snd (m r2))).
Definition xs {A} (m : M A) : Prop := forall r1 r2, rel r1 r2 -> xc m r1 r2.
Definition xsat {A} (b : N) (m : M A) : Prop := forall r1 r2, rel r1 r2 -> at_byte b r2 -> xc m r1 r2.

Lemma xsat_weaken {A} b (m : M A) : xs m -> xsat b m.
Proof. intros H r1 r2 Hr _. apply H. exact Hr. Qed.

Lemma xs_ret {A} (a : A) : xs (ret a).
Proof. intros r1 r2 H. right. split; [reflexivity|exact H]. Qed.
Lemma xs_fuel {A} : xs (@out_of_fuel A).
Proof. intros r1 r2 H. left. reflexivity. Qed.
Lemma xs_error {A} c : xs (@error A c).
Proof.
  intros r1 r2 H. right. unfold error, r_position. cbn [fst snd]. split; [reflexivity|exact H].
Qed.
Lemma xs_peek_error {A} c : xs (@peek_error A c).
Proof.
  intros r1 r2 H. right. unfold peek_error. destruct (r_peek_position r1), (r_peek_position r2). cbn [fst snd].
  split; [reflexivity|exact H].
Qed.
Lemma xs_position : xs position.
Proof.
  intros r1 r2 H. right. unfold position, r_position. cbn [fst snd]. pose proof H as (_ & _ & Hl & Hc & _). rewrite Hl, Hc.
  split; [reflexivity|exact H].
Qed.

Definition xc2 {A} (m1 m2 : M A) (r1 r2 : reader) : Prop :=
  fst (m2 r2) = Err EFuel \/ (rres (fst (m1 r1)) (fst (m2 r2)) /\ rel (snd (m1 r1)) (snd (m2 r2))).
Definition xs2 {A} (m1 m2 : M A) : Prop := forall r1 r2, rel r1 r2 -> xc2 m1 m2 r1 r2.
Lemma xs2_of_xs {A} (m : M A) : xs m -> xs2 m m.
Proof. intros H. exact H. Qed.
Lemma xc2_bind {A B} (m1 m2 : M A) (f1 f2 : A -> M B) r1 r2 :
  xc2 m1 m2 r1 r2 -> (forall a, xs2 (f1 a) (f2 a)) -> xc2 (bind m1 f1) (bind m2 f2) r1 r2.
Proof.
  intros Hm Hf. unfold xc2, bind. destruct Hm as [E|[E Hr]].
  - left. destruct (m2 r2) as [[a|e] r2']; cbn [fst] in E; [discriminate|]. inversion E. reflexivity.
  - destruct (m1 r1) as [[a1|e1] r1']; destruct (m2 r2) as [[a2|e2] r2']; cbn [fst snd rres] in *; try contradiction.
    + subst a2. apply Hf. exact Hr.
    + right. split; [exact E|exact Hr].
Qed.
Lemma xs2_bind {A B} (m1 m2 : M A) (f1 f2 : A -> M B) :
  xs2 m1 m2 -> (forall a, xs2 (f1 a) (f2 a)) -> xs2 (bind m1 f1) (bind m2 f2).
Proof. intros Hm Hf r1 r2 H. apply xc2_bind; [apply Hm; exact H|exact Hf]. Qed.
Lemma xs_bind {A B} (m : M A) (f : A -> M B) : xs m -> (forall a, xs (f a)) -> xs (bind m f).
Proof. exact (xs2_bind m m f f). Qed.
Lemma xsat_bind {A B} b (m : M A) (f : A -> M B) : xsat b m -> (forall a, xs (f a)) -> xsat b (bind m f).
Proof. intros Hm Hf r1 r2 H Hb. apply (xc2_bind m m f f); [apply Hm; assumption|exact Hf]. Qed.

Lemma rel_consume r1 r2 b l : rel r1 r2 -> rinput r2 = EByte b :: l -> rel (consume r1 b l) (consume r2 b l).
Proof.
  intros (K1 & K2 & Hl & Hc & Hi & Ha) E. unfold consume. rewrite Hl, Hc. destruct (advance (rline r2) (rcol r2) b).
  repeat split; cbn; auto. rewrite E in Ha. apply allb_tl in Ha. exact Ha.
Qed.
Lemma rel_set_pending r1 r2 p1 p2 : rel r1 r2 ->
  rel {| rk := rk r1; rline := rline r1; rcol := rcol r1; rpending := p1; rinput := rinput r1 |}
      {| rk := rk r2; rline := rline r2; rcol := rcol r2; rpending := p2; rinput := rinput r2 |}.
Proof. intros (K1 & K2 & Hl & Hc & Hi & Ha). repeat split; cbn; auto. Qed.

Lemma peek_cross r1 r2 : rel r1 r2 ->
  match rinput r2 with
  | EByte b :: l => exists r1' r2', r_peek r1 = (Ok (Some b), r1') /\ r_peek r2 = (Ok (Some b), r2') /\ rel r1' r2' /\ at_byte b r2'
  | _ => exists r1' r2', r_peek r1 = (Ok None, r1') /\ r_peek r2 = (Ok None, r2') /\ rel r1' r2'
  end.
Proof.
  intros H. pose proof H as (K1 & K2 & Hl & Hc & Hi & Ha). unfold r_peek. rewrite Hi.
  destruct (rinput r2) as [|[b| |e] l] eqn:E.
  - exists (if rpending r1 then r1 else {| rk := rk r1; rline := rline r1; rcol := rcol r1; rpending := false; rinput := [] |}),
           (if rpending r2 then r2 else {| rk := rk r2; rline := rline r2; rcol := rcol r2; rpending := false; rinput := [] |}).
    split; [destruct (rpending r1); reflexivity|]. split; [destruct (rpending r2); reflexivity|].
    destruct (rpending r1), (rpending r2); repeat split; cbn; auto; try (rewrite Hi, E; reflexivity); try (rewrite E; reflexivity);
      try (rewrite E; constructor); try constructor.
  - exists (if rpending r1 then r1 else {| rk := rk r1; rline := rline r1; rcol := rcol r1; rpending := true; rinput := EByte b :: l |}),
           (if rpending r2 then r2 else {| rk := rk r2; rline := rline r2; rcol := rcol r2; rpending := true; rinput := EByte b :: l |}).
    split; [destruct (rpending r1); reflexivity|]. split; [destruct (rpending r2); reflexivity|].
    split.
    + destruct (rpending r1), (rpending r2); repeat split; cbn; auto; try (rewrite Hi, E; reflexivity); try (rewrite E; reflexivity);
        try (rewrite E; exact Ha); try exact Ha.
    + destruct (rpending r2) eqn:Ep; (split; [cbn; auto|exists l; cbn; auto]).
  - exfalso. inversion Ha as [|? ? H1 H2]. destruct H1.
  - exfalso. inversion Ha as [|? ? H1 H2]. destruct H1.
Qed.

Lemma xs_bind_peek {A} (k : option N -> M A) :
  xs (k None) -> (forall b, xsat b (k (Some b))) -> xs (bind peek k).
Proof.
  intros Hn Hs r1 r2 H. unfold xc, bind, peek. pose proof (peek_cross r1 r2 H) as Hc.
  destruct (rinput r2) as [|[b| |e] l].
  - destruct Hc as (r1' & r2' & E1 & E2 & Hr). rewrite E1, E2. apply Hn. exact Hr.
  - destruct Hc as (r1' & r2' & E1 & E2 & Hr & Hb). rewrite E1, E2. apply Hs; assumption.
  - destruct Hc as (r1' & r2' & E1 & E2 & Hr). rewrite E1, E2. apply Hn. exact Hr.
  - destruct Hc as (r1' & r2' & E1 & E2 & Hr). rewrite E1, E2. apply Hn. exact Hr.
Qed.
Lemma xs_peek : xs peek.
Proof.
  intros r1 r2 H. pose proof (xs_bind_peek (fun o => ret o) (xs_ret None) (fun b => xsat_weaken b _ (xs_ret (Some b))) r1 r2 H) as Hx.
  unfold xc, bind, ret in *. destruct (peek r1) as [[a1|e1] r1']; destruct (peek r2) as [[a2|e2] r2']; exact Hx.
Qed.

Lemma discard_cross b r1 r2 : rel r1 r2 -> at_byte b r2 -> rel (r_discard r1) (r_discard r2).
Proof.
  intros H [Hp [l Hl]]. pose proof H as (K1 & K2 & _ & _ & Hi & _). unfold r_discard. rewrite K1, K2, Hp, Hi, Hl.
  apply rel_consume; assumption.
Qed.
Lemma xsat_bind_eat {B} b (m : M B) : xs m -> xsat b (bind (A := unit) eat_char (fun _ => m)).
Proof. intros Hm r1 r2 H Hb. unfold xc, bind, eat_char. apply Hm. apply (discard_cross b); assumption. Qed.
Lemma xsat_error_consume {A} b c : xsat b (@error_consume A c).
Proof.
  intros r1 r2 H Hb. right. unfold error_consume, peek_error. destruct (r_peek_position r1), (r_peek_position r2). cbn [fst snd].
  split; [reflexivity|apply (discard_cross b); assumption].
Qed.

Lemma next_cross r1 r2 : rel r1 r2 ->
  match rinput r2 with
  | EByte b :: l => r_next r1 = (Ok (Some b), consume r1 b l) /\ r_next r2 = (Ok (Some b), consume r2 b l)
  | _ => exists r1' r2', r_next r1 = (Ok None, r1') /\ r_next r2 = (Ok None, r2') /\ rel r1' r2'
  end.
Proof.
  intros H. pose proof H as (K1 & K2 & Hl & Hc & Hi & Ha). unfold r_next. rewrite Hi.
  destruct (rinput r2) as [|[b| |e] l] eqn:E.
  - destruct (rpending r1), (rpending r2); cbn [skip_intr]; eexists; eexists; (split; [reflexivity|split; [reflexivity|]]);
      repeat split; cbn; auto; constructor.
  - destruct (rpending r1), (rpending r2); cbn [skip_intr]; split; reflexivity.
  - exfalso. inversion Ha as [|? ? H1 H2]. destruct H1.
  - exfalso. inversion Ha as [|? ? H1 H2]. destruct H1.
Qed.
Lemma xs_bind_next {A} (k : option N -> M A) : xs (k None) -> (forall c, xs (k (Some c))) -> xs (bind next_char k).
Proof.
  intros Hn Hs r1 r2 H. unfold xc, bind, next_char. pose proof (next_cross r1 r2 H) as Hc.
  destruct (rinput r2) as [|[b| |e] l] eqn:E.
  - destruct Hc as (r1' & r2' & E1 & E2 & Hr). rewrite E1, E2. apply Hn. exact Hr.
  - destruct Hc as [E1 E2]. rewrite E1, E2. apply Hs. apply rel_consume; assumption.
  - destruct Hc as (r1' & r2' & E1 & E2 & Hr). rewrite E1, E2. apply Hn. exact Hr.
  - destruct Hc as (r1' & r2' & E1 & E2 & Hr). rewrite E1, E2. apply Hn. exact Hr.
Qed.

Lemma xs_ext {A} (m m' : M A) : (forall r, m r = m' r) -> xs m' -> xs m.
Proof. intros E H r1 r2 Hr. unfold xc. rewrite !E. apply H. exact Hr. Qed.

Lemma xsat_ext {A} b (m m' : M A) : (forall r, m r = m' r) -> xsat b m' -> xsat b m.
Proof. intros E H r1 r2 Hr Hb. unfold xc. rewrite !E. apply H; assumption. Qed.

Ltac xs_walk lem :=
  first [apply (lem (@xs) (fun b A => @xsat A b)) | apply (lem (@xs))];
  first [ exact (@xs_ext) | exact (fun b A => @xsat_ext A b) | exact (fun b A => @xsat_weaken A b)
        | exact (@xs_ret) | exact (@xs_fuel) | exact (@xs_error) | exact (@xs_peek_error)
        | exact (@xs_bind) | exact (fun b A B => @xsat_bind A B b) | exact (@xs_bind_peek) | exact (@xs_bind_next)
        | exact (fun b A => @xsat_bind_eat A b) | exact (fun b A => @xsat_error_consume A b) | idtac ].

Lemma xs_next_or_eof : xs next_or_eof.
Proof. xs_walk walk_next_or_eof. Qed.
Lemma xs_next_or_eof_char : xs next_or_eof_char.
Proof. xs_walk walk_next_or_eof_char. Qed.
Lemma xs_as_str b : xs (Scan.as_str b).
Proof. xs_walk walk_as_str. Qed.

Lemma xs_hex_escape_loop fuel : forall x, xs (hex_escape_loop fuel x).
Proof. xs_walk walk_hex_escape_loop. Qed.
Lemma xs_parse_r6rs_escape fuel : xs (parse_r6rs_escape fuel).
Proof. xs_walk walk_parse_r6rs_escape. Qed.
Lemma xs_elisp_hex_loop fuel : forall x, xs (elisp_hex_loop fuel x).
Proof. xs_walk walk_elisp_hex_loop. Qed.
Lemma xs_decode_elisp_uni_escape k : forall x, xs (decode_elisp_uni_escape k x).
Proof. xs_walk walk_decode_elisp_uni_escape. Qed.
Lemma xs_elisp_octal_loop fuel : forall x, xs (elisp_octal_loop fuel x).
Proof. xs_walk walk_elisp_octal_loop. Qed.
Lemma xs_elisp_char_escape_of x : xs (elisp_char_escape_of x).
Proof. xs_walk walk_elisp_char_escape_of. Qed.
Lemma xs_elisp_uni_escape_of x : xs (elisp_uni_escape_of x).
Proof. xs_walk walk_elisp_uni_escape_of. Qed.
Lemma xs_parse_elisp_escape fuel : xs (parse_elisp_escape fuel).
Proof. xs_walk walk_parse_elisp_escape. Qed.
Lemma xs_elisp_finish fl scratch : xs (elisp_finish fl scratch).
Proof. xs_walk walk_elisp_finish. Qed.

Lemma xs_take_bytes k : forall acc, xs (take_bytes k acc).
Proof. xs_walk walk_take_bytes. Qed.
Lemma xs_decode_utf8_sequence_b c : xs (decode_utf8_sequence_b c).
Proof. xs_walk walk_decode_utf8_sequence_b. Qed.
Lemma xs_decode_utf8_sequence c : xs (decode_utf8_sequence c).
Proof. xs_walk walk_decode_utf8_sequence. Qed.
Lemma xs_r6rs_char_hex_loop fuel : forall x first, xs (r6rs_char_hex_loop fuel x first).
Proof. xs_walk walk_r6rs_char_hex_loop. Qed.
Lemma xs_char_name_loop fuel : forall scratch, xs (char_name_loop fuel scratch).
Proof. xs_walk walk_char_name_loop. Qed.
Lemma xs_open_ended_char x : xs (open_ended_char x).
Proof. xs_walk walk_open_ended_char. Qed.
Lemma xs_parse_r6rs_char fuel : xs (parse_r6rs_char fuel).
Proof. xs_walk walk_parse_r6rs_char. Qed.
Lemma xs_as_char x : xs (Scan.as_char x).
Proof. xs_walk walk_as_char. Qed.
Lemma xs_decode_elisp_char_escape fuel : xs (decode_elisp_char_escape fuel).
Proof. xs_walk walk_decode_elisp_char_escape. Qed.
Lemma xs_parse_elisp_char fuel : xs (parse_elisp_char fuel).
Proof. xs_walk walk_parse_elisp_char. Qed.

Definition same_place (r r' : reader) : Prop :=
  rk r' = rk r /\ rline r' = rline r /\ rcol r' = rcol r /\ rinput r' = rinput r.
Lemma rel_same_place_r r1 r2 r2' : rel r1 r2 -> same_place r2 r2' -> rel r1 r2'.
Proof. intros (K1 & K2 & Hl & Hc & Hi & Ha) (S1 & S2 & S3 & S4). repeat split; try congruence. Qed.
Lemma rel_same_place_l r1 r1' r2 : rel r1 r2 -> same_place r1 r1' -> rel r1' r2.
Proof. intros (K1 & K2 & Hl & Hc & Hi & Ha) (S1 & S2 & S3 & S4). repeat split; try congruence. Qed.

Lemma peek_io_byte r b l : allb (rinput r) -> rinput r = EByte b :: l ->
  exists r', r_peek r = (Ok (Some b), r') /\ same_place r r' /\ rpending r' = true.
Proof.
  intros Ha E. unfold r_peek. destruct (rpending r) eqn:Ep.
  - rewrite E. exists r. repeat split; auto.
  - rewrite (allb_skip _ Ha), E. eexists. split; [reflexivity|]. repeat split; cbn; auto.
Qed.
Lemma peek_io_nil r : rinput r = [] -> exists r', r_peek r = (Ok None, r') /\ same_place r r'.
Proof.
  intros E. unfold r_peek. destruct (rpending r) eqn:Ep; rewrite E; cbn [skip_intr].
  - exists r. repeat split; auto.
  - eexists. split; [reflexivity|]. repeat split; cbn; auto.
Qed.
Lemma consume_same_place r r' b l : same_place r r' -> consume r' b l = consume r b l.
Proof. intros (S1 & S2 & S3 & S4). unfold consume. rewrite S1, S2, S3. reflexivity. Qed.
Lemma discard_pending_io r b l : rk r = SrcIo -> rpending r = true -> rinput r = EByte b :: l -> r_discard r = consume r b l.
Proof. intros K P E. unfold r_discard. rewrite K, P, E. reflexivity. Qed.

Lemma span_symbol_split l : forall acc, span_symbol l acc = (acc ++ fst (span_symbol l []), snd (span_symbol l [])).
Proof.
  induction l as [|[b| |e] l IH]; intros acc; cbn [span_symbol fst snd]; try (rewrite app_nil_r; reflexivity).
  destruct (is_symbol_terminator b); [cbn [fst snd]; rewrite app_nil_r; reflexivity|].
  rewrite (IH (acc ++ [b])), (IH ([] ++ [b])). cbn [fst snd]. rewrite <- app_assoc. reflexivity.
Qed.

Lemma advance_over_cons r b bs l' rest :
  advance_over r (b :: bs) rest = advance_over (consume r b l') bs rest.
Proof.
  unfold advance_over, consume. cbn [fold_left fst snd].
  destruct (advance (rline r) (rcol r) b) as [ln cl]. cbn [rline rcol rk]. reflexivity.
Qed.

Lemma slice_symbol_step scratch r ch l' : rinput r = EByte ch :: l' -> is_symbol_terminator ch = false ->
  scan_symbol_slice scratch r = scan_symbol_slice (scratch ++ [ch]) (consume r ch l').
Proof.
  intros E Ht. unfold scan_symbol_slice. rewrite E. cbn [span_symbol]. rewrite Ht.
  rewrite (span_symbol_split l' ([] ++ [ch])). cbn [app].
  rewrite consume_input. destruct (span_symbol l' []) as [m rest]. cbn [fst snd].
  rewrite (advance_over_cons r ch m l' rest). rewrite <- app_assoc. cbn [app]. reflexivity.
Qed.

Lemma advance_over_nil r rest : rinput r = rest -> same_place r (advance_over r [] rest).
Proof. intros E. unfold advance_over. cbn [fold_left]. repeat split; cbn; auto. Qed.

Lemma scan_symbol_io_unfold f scratch r :
  scan_symbol_io (S f) scratch r =
  match r_peek r with
  | (Ok (Some ch), r') =>
      if is_symbol_terminator ch then (if beq_bytes scratch [46] then error InvalidSymbol else ret scratch) r'
      else scan_symbol_io f (scratch ++ [ch]) (r_discard r')
  | (Ok None, r') =>
      (if is_truncated_symbol scratch then error EofWhileParsingValue
       else if beq_bytes scratch [46] then error InvalidSymbol else ret scratch) r'
  | (Err e, r') => (Err e, r')
  end.
Proof.
  cbn [scan_symbol_io]. unfold bind, peek, eat_char. destruct (r_peek r) as [[[ch|]|e] r']; try reflexivity.
  destruct (is_symbol_terminator ch); reflexivity.
Qed.
Lemma rr_error {A} c r1 r2 : rel r1 r2 ->
  rres (fst (@error A c r1)) (fst (@error A c r2)) /\ rel (snd (@error A c r1)) (snd (@error A c r2)).
Proof. intros H. unfold error, r_position. cbn [fst snd]. split; [reflexivity|exact H]. Qed.

Lemma symbol_cross fuel : forall scratch r1 r2, rel r1 r2 ->
  fst (scan_symbol_io fuel scratch r2) = Err EFuel \/
  (rres (fst (scan_symbol_slice scratch r1)) (fst (scan_symbol_io fuel scratch r2)) /\
   rel (snd (scan_symbol_slice scratch r1)) (snd (scan_symbol_io fuel scratch r2))).
Proof.
  induction fuel as [|f IH]; intros scratch r1 r2 H; [left; reflexivity|].
  pose proof H as (K1 & K2 & Hl & Hc & Hi & Ha). rewrite scan_symbol_io_unfold.
  destruct (rinput r2) as [|[ch| |e] l'] eqn:E.
  - (* end of input *)
    destruct (peek_io_nil r2 E) as (r2' & Ep & Hs). rewrite Ep. right.
    unfold scan_symbol_slice. rewrite Hi. cbn [span_symbol]. rewrite app_nil_r. cbn [andb].
    assert (Hr : rel (advance_over r1 [] []) r2').
    { eapply rel_same_place_l; [eapply rel_same_place_r; [exact H|exact Hs]|apply advance_over_nil; congruence]. }
    destruct (is_truncated_symbol scratch); [apply rr_error; exact Hr|].
    destruct (beq_bytes scratch [46]); [apply rr_error; exact Hr|]. split; [reflexivity|exact Hr].
  - destruct (peek_io_byte r2 ch l' ltac:(rewrite E; exact Ha) E) as (r2' & Ep & Hs & Hp). rewrite Ep.
    destruct (is_symbol_terminator ch) eqn:Et.
    + right. unfold scan_symbol_slice. rewrite Hi. cbn [span_symbol]. rewrite Et, app_nil_r. cbn [andb].
      assert (Hr : rel (advance_over r1 [] (EByte ch :: l')) r2').
      { eapply rel_same_place_l; [eapply rel_same_place_r; [exact H|exact Hs]|apply advance_over_nil; congruence]. }
      destruct (beq_bytes scratch [46]); [apply rr_error; exact Hr|]. split; [reflexivity|exact Hr].
    + destruct Hs as (S1 & S2 & S3 & S4).
      rewrite (discard_pending_io r2' ch l' ltac:(congruence) Hp ltac:(congruence)).
      rewrite (consume_same_place r2 r2' ch l' (conj S1 (conj S2 (conj S3 S4)))).
      rewrite (slice_symbol_step scratch r1 ch l' ltac:(congruence) Et).
      apply IH. apply rel_consume; assumption.
  - exfalso. inversion Ha as [|? ? H1 H2]. destruct H1.
  - exfalso. inversion Ha as [|? ? H1 H2]. destruct H1.
Qed.

Lemma xs_finish_str b : xs (finish_str b).
Proof.
  intros r1 r2 H. unfold xc, finish_str. pose proof H as (K1 & K2 & _). rewrite K1, K2. apply (xs_as_str b). exact H.
Qed.
Lemma xs_parse_symbol_rd fuel scratch : xs (parse_symbol_rd fuel scratch).
Proof.
  intros r1 r2 H. unfold xc, parse_symbol_rd. pose proof H as (K1 & K2 & _). rewrite K1, K2.
  pose proof (xs2_bind _ _ _ _ (symbol_cross fuel scratch) (fun b => xs_as_str b) r1 r2 H) as Hx.
  destruct Hx as [E|[E Hr]]; [left; exact E|right].
  (* on the slice, finish_str is as_str *)
  assert (Ef : (b <- scan_symbol_slice scratch;; finish_str b) r1 = (b <- scan_symbol_slice scratch;; Scan.as_str b) r1).
  { unfold bind. assert (Hk : rk (snd (scan_symbol_slice scratch r1)) = SrcSlice).
    { unfold scan_symbol_slice. destruct (span_symbol (rinput r1) []) as [sc rest]. cbv zeta.
      destruct (_ && _); [unfold error; destruct (r_position _); cbn; rewrite advance_over_rk; exact K1|].
      destruct (beq_bytes _ _); [unfold error; destruct (r_position _); cbn; rewrite advance_over_rk; exact K1|].
      unfold ret. cbn. rewrite advance_over_rk. exact K1. }
    destruct (scan_symbol_slice scratch r1) as [[b|e] r1']; [|reflexivity]. cbn [snd] in Hk. unfold finish_str. rewrite Hk. reflexivity. }
  rewrite Ef. split; assumption.
Qed.

(* less fuel only ever adds the fuel error *)
Definition um {A} (mi ms : M A) : Prop := forall r, fst (mi r) = Err EFuel \/ mi r = ms r.
Lemma um_refl {A} (m : M A) : um m m.
Proof. intros r. right. reflexivity. Qed.
Lemma um_fuel {A} (m : M A) : um out_of_fuel m.
Proof. intros r. left. reflexivity. Qed.
Lemma um_bind {A B} (mi ms : M A) (fi fs : A -> M B) : um mi ms -> (forall a, um (fi a) (fs a)) -> um (bind mi fi) (bind ms fs).
Proof.
  intros Hm Hf r. unfold bind. destruct (Hm r) as [E|E].
  - left. destruct (mi r) as [[a|e] r']; cbn [fst] in E; [discriminate|]. inversion E. reflexivity.
  - rewrite E. destruct (ms r) as [[a|e] r']; [apply Hf|right; reflexivity].
Qed.
Create HintDb umdb.
#[export] Hint Extern 1 (_ <= _)%nat => lia : umdb.
Ltac um_step :=
  lazymatch goal with
  | |- um ?a ?a => apply um_refl
  | |- um out_of_fuel _ => apply um_fuel
  | |- _ =>
      first
        [ assumption
        | solve [eauto 3 with umdb]
        | lazymatch goal with
          | |- um (bind _ _) (bind _ _) => apply um_bind; [|intros ?]
          | |- um (if ?c then _ else _) (if ?c then _ else _) => destruct c
          | |- um (match ?x with _ => _ end) (match ?x with _ => _ end) => destruct x
          | |- um (let '(_, _) := ?x in _) (let '(_, _) := ?x in _) => destruct x
          (* after `intros r; rewrite .._eq; revert r` the goal is um unfolded; um_bind applies up to conversion *)
          | |- forall r : reader, _ => apply um_bind; [|intros ?]
          end ]
  end.
Ltac um_auto := repeat um_step.
Lemma xs2_um {A} (mi ms : M A) : xs ms -> um mi ms -> xs2 ms mi.
Proof.
  intros Hx Hu r1 r2 H. unfold xc2. destruct (Hu r2) as [E|E]; [left; exact E|]. rewrite E. apply Hx. exact H.
Qed.

Lemma um_hex_escape_loop fi : forall fs x, (fi <= fs)%nat -> um (hex_escape_loop fi x) (hex_escape_loop fs x).
Proof.
  induction fi as [|fi IH]; intros fs x Hf; [apply um_fuel|]. destruct fs as [|fs]; [lia|]. cbn [hex_escape_loop].
  assert (H' : forall y, um (hex_escape_loop fi y) (hex_escape_loop fs y)) by (intros; apply IH; lia). um_auto.
Qed.
Lemma um_parse_r6rs_escape fi fs : (fi <= fs)%nat -> um (parse_r6rs_escape fi) (parse_r6rs_escape fs).
Proof.
  intros Hf. unfold parse_r6rs_escape, decode_r6rs_hex_escape. pose proof (um_hex_escape_loop fi fs 0 Hf). um_auto.
Qed.
Lemma um_elisp_hex_loop fi : forall fs x, (fi <= fs)%nat -> um (elisp_hex_loop fi x) (elisp_hex_loop fs x).
Proof.
  induction fi as [|fi IH]; intros fs x Hf; [apply um_fuel|]. destruct fs as [|fs]; [lia|]. cbn [elisp_hex_loop].
  assert (H' : forall y, um (elisp_hex_loop fi y) (elisp_hex_loop fs y)) by (intros; apply IH; lia). um_auto.
Qed.
Lemma um_elisp_octal_loop fi : forall fs x, (fi <= fs)%nat -> um (elisp_octal_loop fi x) (elisp_octal_loop fs x).
Proof.
  induction fi as [|fi IH]; intros fs x Hf; [apply um_fuel|]. destruct fs as [|fs]; [lia|]. cbn [elisp_octal_loop].
  assert (H' : forall y, um (elisp_octal_loop fi y) (elisp_octal_loop fs y)) by (intros; apply IH; lia). um_auto.
Qed.
Lemma um_parse_elisp_escape fi fs : (fi <= fs)%nat -> um (parse_elisp_escape fi) (parse_elisp_escape fs).
Proof.
  intros Hf. unfold parse_elisp_escape, decode_elisp_hex_escape, decode_elisp_octal_escape.
  pose proof (fun x => um_elisp_hex_loop fi fs x Hf). pose proof (fun x => um_elisp_octal_loop fi fs x Hf). um_auto.
Qed.

Lemma span_plain_split l : forall acc, span_plain l acc = (acc ++ fst (span_plain l []), snd (span_plain l [])).
Proof.
  induction l as [|[b| |e] l IH]; intros acc; cbn [span_plain fst snd]; try (rewrite app_nil_r; reflexivity).
  destruct ((b =? 92) || (b =? 34)); [cbn [fst snd]; rewrite app_nil_r; reflexivity|].
  rewrite (IH (acc ++ [b])), (IH ([] ++ [b])). cbn [fst snd]. rewrite <- app_assoc. reflexivity.
Qed.

Lemma slice_r6rs_step f scratch r ch l' : rinput r = EByte ch :: l' -> (ch =? 92) || (ch =? 34) = false ->
  r6rs_str_slice (S f) scratch r = r6rs_str_slice (S f) (scratch ++ [ch]) (consume r ch l').
Proof.
  intros E Ht. cbn [r6rs_str_slice]. rewrite E. cbn [span_plain]. rewrite Ht.
  rewrite (span_plain_split l' ([] ++ [ch])). cbn [app]. rewrite consume_input.
  destruct (span_plain l' []) as [m rest]. cbn [fst snd].
  rewrite (advance_over_cons r ch m l' rest).
  destruct rest as [|[b| |e] rest']; try reflexivity.
  replace (scratch ++ ch :: m) with ((scratch ++ [ch]) ++ m) by (rewrite <- app_assoc; reflexivity).
  destruct (b =? 34); [reflexivity|].
  unfold bind. destruct (parse_r6rs_escape f _) as [[e|er] r']; [|reflexivity].
  rewrite <- (app_assoc scratch [ch] (m ++ e)). reflexivity.
Qed.

Lemma next_io_byte r b l : allb (rinput r) -> rinput r = EByte b :: l -> r_next r = (Ok (Some b), consume r b l).
Proof. intros Ha E. unfold r_next. destruct (rpending r); [rewrite E; reflexivity|rewrite (allb_skip _ Ha), E; reflexivity]. Qed.
Lemma next_io_nil r : rinput r = [] -> exists r', r_next r = (Ok None, r') /\ same_place r r'.
Proof.
  intros E. unfold r_next. destruct (rpending r); rewrite E; cbn [skip_intr]; eexists; (split; [reflexivity|]); repeat split; cbn; auto.
Qed.

Lemma r6rs_str_io_unfold f scratch r :
  r6rs_str_io (S f) scratch r =
  match r_next r with
  | (Ok (Some ch), r') =>
      if ch =? 34 then (Ok scratch, r')
      else if ch =? 92 then (e <- parse_r6rs_escape f ;; r6rs_str_io f (scratch ++ e)) r'
      else r6rs_str_io f (scratch ++ [ch]) r'
  | (Ok None, r') => error EofWhileParsingString r'
  | (Err e, r') => (Err e, r')
  end.
Proof.
  cbn [r6rs_str_io]. unfold next_or_eof, next_char. unfold bind at 1. unfold bind at 1.
  destruct (r_next r) as [[[ch|]|e] r']; try reflexivity. unfold ret. destruct (ch =? 34); [reflexivity|]. destruct (ch =? 92); reflexivity.
Qed.

(* the slice side spends no fuel on plain bytes (slice_r6rs_step keeps S fs
   while the stream goes to fi), so the statement is for any fs >= fi; an escape
   scanned with fs is carried to fi by um (xs2_um) *)
Lemma r6rs_cross fi : forall fs scratch r1 r2, rel r1 r2 -> (fi <= fs)%nat ->
  xc2 (r6rs_str_slice fs scratch) (r6rs_str_io fi scratch) r1 r2.
Proof.
  induction fi as [|fi IH]; intros fs scratch r1 r2 H Hf; [left; reflexivity|]. destruct fs as [|fs]; [lia|].
  pose proof H as (K1 & K2 & Hl & Hc & Hi & Ha). unfold xc2. rewrite r6rs_str_io_unfold.
  destruct (rinput r2) as [|[ch| |e] l'] eqn:E.
  - destruct (next_io_nil r2 E) as (r2' & En & Hs). rewrite En. right.
    cbn [r6rs_str_slice]. rewrite Hi. cbn [span_plain].
    apply rr_error. eapply rel_same_place_l; [eapply rel_same_place_r; [exact H|exact Hs]|apply advance_over_nil; congruence].
  - rewrite (next_io_byte r2 ch l' ltac:(rewrite E; exact Ha) E).
    destruct (ch =? 34) eqn:E34.
    { right. cbn [r6rs_str_slice]. rewrite Hi. cbn [span_plain]. rewrite E34, Bool.orb_true_r. rewrite ?E34. rewrite app_nil_r. unfold ret. cbn [fst snd].
      split; [exact eq_refl|]. apply rel_consume; [|exact E].
      eapply rel_same_place_l; [exact H|apply advance_over_nil; congruence]. }
    destruct (ch =? 92) eqn:E92.
    { cbn [r6rs_str_slice]. rewrite Hi. cbn [span_plain]. rewrite E92. cbn [orb]. rewrite ?E34.
      assert (Hr : rel (consume (advance_over r1 [] (EByte ch :: l')) ch l') (consume r2 ch l')).
      { apply rel_consume; [|exact E]. eapply rel_same_place_l; [exact H|apply advance_over_nil; congruence]. }
      refine (xs2_bind _ _ _ _ (xs2_um _ _ (xs_parse_r6rs_escape fs) (um_parse_r6rs_escape fi fs ltac:(lia))) _ _ _ Hr).
      intros e r1' r2' Hr'. cbn [app]. apply IH; [exact Hr'|lia]. }
    rewrite (slice_r6rs_step fs scratch r1 ch l' ltac:(congruence) ltac:(rewrite E92, E34; reflexivity)).
    apply IH; [apply rel_consume; assumption|lia].
  - exfalso. inversion Ha as [|? ? H1 H2]. destruct H1.
  - exfalso. inversion Ha as [|? ? H1 H2]. destruct H1.
Qed.

Lemma xs2_finish (m1 m2 : M bytes) : xs2 m1 m2 -> xs2 (b <- m1 ;; finish_str b) (b <- m2 ;; Scan.as_str b).
Proof.
  intros H. apply xs2_bind; [exact H|]. intros b r1 r2 Hr. unfold xc2, finish_str. pose proof Hr as (K1 & _). rewrite K1.
  apply (xs_as_str b). exact Hr.
Qed.
Lemma xs_parse_r6rs_str_rd fuel : xs (parse_r6rs_str_rd fuel).
Proof.
  intros r1 r2 H. unfold xc, parse_r6rs_str_rd. pose proof H as (K1 & K2 & _). rewrite K1, K2.
  apply (xs2_finish _ _ (fun r1 r2 Hr => r6rs_cross fuel fuel [] r1 r2 Hr (le_n _))). exact H.
Qed.

Definition fl_na (fl : elisp_flags) : elisp_flags := {| seen_ub := seen_ub fl; seen_mb := seen_mb fl; seen_na := true |}.

Lemma slice_elisp_step f fl scratch r ch l' : rinput r = EByte ch :: l' -> (ch =? 92) || (ch =? 34) = false ->
  elisp_str_slice (S f) fl scratch r =
  elisp_str_slice (S f) (if 127 <? ch then fl_na fl else fl) (scratch ++ [ch]) (consume r ch l').
Proof.
  intros E Ht. cbn [elisp_str_slice]. rewrite E. cbn [span_plain]. rewrite Ht.
  rewrite (span_plain_split l' ([] ++ [ch])). cbn [app]. rewrite consume_input.
  destruct (span_plain l' []) as [m rest]. cbn [fst snd].
  rewrite (advance_over_cons r ch m l' rest). cbn [existsb]. unfold fl_na.
  destruct rest as [|[b| |e] rest']; try reflexivity.
  replace (scratch ++ ch :: m) with ((scratch ++ [ch]) ++ m) by (rewrite <- app_assoc; reflexivity).
  destruct (b =? 34).
  { destruct (127 <? ch); destruct (existsb (fun b0 : N => 127 <? b0) m); reflexivity. }
  unfold bind. destruct (parse_elisp_escape f _) as [[x|er] r']; [|reflexivity].
  rewrite <- (app_assoc scratch [ch] (m ++ fst x)).
  destruct (127 <? ch); destruct (existsb (fun b0 : N => 127 <? b0) m); reflexivity.
Qed.

Lemma elisp_str_io_unfold f fl scratch r :
  elisp_str_io (S f) fl scratch r =
  match r_next r with
  | (Ok (Some ch), r') =>
      if ch =? 34 then elisp_finish fl scratch r'
      else if ch =? 92 then (x <- parse_elisp_escape f ;; elisp_str_io f (note_escape fl (snd x)) (scratch ++ fst x)) r'
      else elisp_str_io f (if 127 <? ch then fl_na fl else fl) (scratch ++ [ch]) r'
  | (Ok None, r') => error EofWhileParsingString r'
  | (Err e, r') => (Err e, r')
  end.
Proof.
  cbn [elisp_str_io]. unfold next_or_eof, next_char. unfold bind at 1. unfold bind at 1.
  destruct (r_next r) as [[[ch|]|e] r']; try reflexivity. unfold ret. destruct (ch =? 34); [reflexivity|]. destruct (ch =? 92); reflexivity.
Qed.

Lemma elisp_cross fi : forall fs fl scratch r1 r2, rel r1 r2 -> (fi <= fs)%nat ->
  xc2 (elisp_str_slice fs fl scratch) (elisp_str_io fi fl scratch) r1 r2.
Proof.
  induction fi as [|fi IH]; intros fs fl scratch r1 r2 H Hf; [left; reflexivity|]. destruct fs as [|fs]; [lia|].
  pose proof H as (K1 & K2 & Hl & Hc & Hi & Ha). unfold xc2. rewrite elisp_str_io_unfold.
  destruct (rinput r2) as [|[ch| |e] l'] eqn:E.
  - destruct (next_io_nil r2 E) as (r2' & En & Hs). rewrite En. right.
    cbn [elisp_str_slice]. rewrite Hi. cbn [span_plain].
    apply rr_error. eapply rel_same_place_l; [eapply rel_same_place_r; [exact H|exact Hs]|apply advance_over_nil; congruence].
  - rewrite (next_io_byte r2 ch l' ltac:(rewrite E; exact Ha) E).
    assert (Hr : rel (consume (advance_over r1 [] (EByte ch :: l')) ch l') (consume r2 ch l')).
    { apply rel_consume; [|exact E]. eapply rel_same_place_l; [exact H|apply advance_over_nil; congruence]. }
    destruct (ch =? 34) eqn:E34.
    { cbn [elisp_str_slice]. rewrite Hi. cbn [span_plain]. rewrite E34, Bool.orb_true_r. rewrite ?E34. cbn [existsb]. rewrite app_nil_r.
      apply (xs_elisp_finish fl scratch). exact Hr. }
    destruct (ch =? 92) eqn:E92.
    { cbn [elisp_str_slice]. rewrite Hi. cbn [span_plain]. rewrite E92. cbn [orb]. rewrite ?E34. cbn [existsb].
      refine (xs2_bind _ _ _ _ (xs2_um _ _ (xs_parse_elisp_escape fs) (um_parse_elisp_escape fi fs ltac:(lia))) _ _ _ Hr).
      intros x r1' r2' Hr'. cbn [app]. apply IH; [exact Hr'|lia]. }
    rewrite (slice_elisp_step fs fl scratch r1 ch l' ltac:(congruence) ltac:(rewrite E92, E34; reflexivity)).
    apply IH; [apply rel_consume; assumption|lia].
  - exfalso. inversion Ha as [|? ? H1 H2]. destruct H1.
  - exfalso. inversion Ha as [|? ? H1 H2]. destruct H1.
Qed.
Lemma xs_parse_elisp_str_rd fuel : xs (parse_elisp_str_rd fuel).
Proof.
  intros r1 r2 H. unfold xc, parse_elisp_str_rd. cbv zeta. pose proof H as (K1 & K2 & _). rewrite K1, K2.
  apply (elisp_cross fuel fuel _ [] r1 r2 H (le_n _)).
Qed.

Section NumCross.
  Variable fast : bool.
  Variable std_parse : N -> Z -> f64.

  Lemma xs_fast_loop fuel : forall f e, xs (f64_from_parts_fast_loop fuel f e).
  Proof. xs_walk walk_fast_loop. Qed.
  Lemma xs_f64_from_parts pos sig e : xs (f64_from_parts fast std_parse pos sig e).
  Proof. xs_walk walk_f64_from_parts. Qed.
  Lemma xs_skip_digits fuel : xs (skip_digits fuel).
  Proof. xs_walk walk_skip_digits. Qed.
  Lemma xs_parse_exponent_overflow fuel p s pe : xs (parse_exponent_overflow fuel p s pe).
  Proof. xs_walk walk_parse_exponent_overflow. Qed.
  Lemma xs_exponent_digits fuel : forall p s pe se e, xs (exponent_digits fast std_parse fuel p s pe se e).
  Proof. xs_walk walk_exponent_digits. Qed.
  Lemma xsat_parse_exponent fuel p s se b : xsat b (parse_exponent fast std_parse fuel p s se).
  Proof. xs_walk walk_parse_exponent. Qed.
  Lemma xs_decimal_digits fuel : forall s e o, xs (decimal_digits fuel s e o).
  Proof. xs_walk walk_decimal_digits. Qed.
  Lemma xsat_parse_decimal fuel p s e b : xsat b (parse_decimal fast std_parse fuel p s e).
  Proof. xs_walk walk_parse_decimal. Qed.
  Lemma xs_parse_long_integer fuel : forall radix p s e, xs (parse_long_integer fast std_parse fuel radix p s e).
  Proof. xs_walk walk_parse_long_integer. Qed.
  Lemma xs_parse_num_tail fuel radix p s : xs (parse_num_tail fast std_parse fuel radix p s).
  Proof. xs_walk walk_parse_num_tail. Qed.
  Lemma xs_num_literal_loop fuel : forall radix p s, xs (num_literal_loop fast std_parse fuel radix p s).
  Proof. xs_walk walk_num_literal_loop. Qed.
  Lemma xs_parse_num_literal fuel radix p : xs (parse_num_literal fast std_parse fuel radix p).
  Proof. xs_walk walk_parse_num_literal. Qed.
End NumCross.

Section TokenCross.
  Variable ro : parse_options.
  Variable alpha : N -> bool.
  Variable fast : bool.
  Variable std_parse : N -> Z -> f64.

  Lemma xs_parse_num_token fuel radix p : xs (parse_num_token fast std_parse fuel radix p).
  Proof. xs_walk walk_parse_num_token. Qed.
  Lemma xs_parse_radix_literal fuel radix : xs (parse_radix_literal fast std_parse fuel radix).
  Proof. xs_walk walk_parse_radix_literal. Qed.
  Lemma xs_parse_number fuel : xs (parse_number fast std_parse fuel).
  Proof. xs_walk walk_parse_number. Qed.

  Lemma xs_skip_comment fuel : xs (skip_comment fuel).
  Proof. xs_walk walk_skip_comment. Qed.
  Lemma xs_parse_whitespace fuel : xs (parse_whitespace fuel).
  Proof. xs_walk walk_parse_whitespace. Qed.
  Lemma xs_parse_symbol fuel : xs (parse_symbol fuel).
  Proof. apply xs_parse_symbol_rd. Qed.
  Lemma xs_parse_symbol_suffix fuel p : xs (parse_symbol_suffix fuel p).
  Proof. apply xs_parse_symbol_rd. Qed.
  Lemma xs_expect_ident ident : xs (expect_ident ident).
  Proof. xs_walk walk_expect_ident. Qed.

  Lemma xsat_parse_token fuel b : xsat b (parse_token ro alpha fast std_parse fuel b).
  Proof. xs_walk walk_parse_token; auto using xs_parse_symbol_rd, xs_parse_r6rs_str_rd, xs_parse_elisp_str_rd. Qed.

    Lemma xs_end_seq fuel close : xs (end_seq fuel close).
  Proof. xs_walk walk_end_seq. Qed.
  Lemma xs_expect_end fuel : xs (expect_end fuel).
  Proof. xs_walk walk_expect_end. Qed.
  Lemma xs_byte_list_loop fuel : forall close acc, xs (byte_list_loop fast std_parse fuel close acc).
  Proof. xs_walk walk_byte_list_loop. Qed.
  Lemma xs_parse_byte_list fuel close : xs (parse_byte_list fast std_parse fuel close).
  Proof. xs_walk walk_parse_byte_list. Qed.
End TokenCross.

Definition prel (s1 s2 : pstate) : Prop := rel (rd s1) (rd s2) /\ depth s1 = depth s2.
Definition rpres {A} (RA : A -> A -> Prop) (x1 x2 : pres A) : Prop :=
  match x1, x2 with
  | POk a, POk b => RA a b
  | PErr (XErr e1), PErr (XErr e2) => rerr e1 e2
  | PErr (XPanic k1), PErr (XPanic k2) => k1 = k2
  | _, _ => False
  end.
Definition pxc {A} (RA : A -> A -> Prop) (m1 m2 : PM A) (s1 s2 : pstate) : Prop :=
  fst (m2 s2) = PErr (XErr EFuel) \/ (rpres RA (fst (m1 s1)) (fst (m2 s2)) /\ prel (snd (m1 s1)) (snd (m2 s2))).
Definition pxsR {A} (RA : A -> A -> Prop) (m1 m2 : PM A) : Prop := forall s1 s2, prel s1 s2 -> pxc RA m1 m2 s1 s2.
Definition pxs {A} (m : PM A) : Prop := pxsR eq m m.
Definition pxsat {A} (b : N) (m : PM A) : Prop := forall s1 s2, prel s1 s2 -> at_byte b (rd s2) -> pxc eq m m s1 s2.

Lemma pxsat_weaken {A} b (m : PM A) : pxs m -> pxsat b m.
Proof. intros H s1 s2 Hs _. apply H. exact Hs. Qed.
Lemma pxs_pret {A} (a : A) : pxs (pret a).
Proof. intros s1 s2 H. right. split; [reflexivity|exact H]. Qed.
Lemma pxs_panic {A} k : pxs (@panic A k).
Proof. intros s1 s2 H. right. split; [reflexivity|exact H]. Qed.
Lemma pxs_fuel {A} : pxs (@pfail A (XErr EFuel)).
Proof. intros s1 s2 H. left. reflexivity. Qed.

Lemma pxc_liftR {A} (m : M A) s1 s2 : xc m (rd s1) (rd s2) -> depth s1 = depth s2 -> pxc eq (liftR m) (liftR m) s1 s2.
Proof.
  intros Hm Hd. unfold pxc, liftR. destruct Hm as [E|[E Hr']].
  - left. destruct (m (rd s2)) as [[a|e] r2']; cbn [fst] in *; [discriminate|]. inversion E. reflexivity.
  - right. destruct (m (rd s1)) as [[a1|e1] r1']; destruct (m (rd s2)) as [[a2|e2] r2']; cbn [fst snd rres rpres] in *; try contradiction;
      (split; [exact E|split; [exact Hr'|exact Hd]]).
Qed.
Lemma pxs_liftR {A} (m : M A) : xs m -> pxs (liftR m).
Proof. intros Hm s1 s2 [Hr Hd]. apply pxc_liftR; [apply Hm; exact Hr|exact Hd]. Qed.
Lemma pxsat_liftR {A} b (m : M A) : xsat b m -> pxsat b (liftR m).
Proof. intros Hm s1 s2 [Hr Hd] Hb. apply pxc_liftR; [apply Hm; assumption|exact Hd]. Qed.

Lemma pxc_bindR {A B} (RA : A -> A -> Prop) (RB : B -> B -> Prop) (m1 m2 : PM A) (f1 f2 : A -> PM B) s1 s2 :
  pxc RA m1 m2 s1 s2 -> (forall a1 a2, RA a1 a2 -> pxsR RB (f1 a1) (f2 a2)) -> pxc RB (pbind m1 f1) (pbind m2 f2) s1 s2.
Proof.
  intros Hm Hf. unfold pxc. rewrite !pbind_unfold. destruct Hm as [E|[E Hr]].
  - left. destruct (m2 s2) as [[a|e] s2']; cbn [fst] in *; [discriminate|]. inversion E. reflexivity.
  - destruct (m1 s1) as [[a1|[e1|k1]] s1']; destruct (m2 s2) as [[a2|[e2|k2]] s2']; cbn [fst snd rpres] in *; try contradiction.
    + apply (Hf a1 a2 E). exact Hr.
    + right. split; [exact E|exact Hr].
    + right. split; [exact E|exact Hr].
Qed.
Lemma pxs_bindR {A B} (RA : A -> A -> Prop) (RB : B -> B -> Prop) (m1 m2 : PM A) (f1 f2 : A -> PM B) :
  pxsR RA m1 m2 -> (forall a1 a2, RA a1 a2 -> pxsR RB (f1 a1) (f2 a2)) -> pxsR RB (pbind m1 f1) (pbind m2 f2).
Proof. intros Hm Hf s1 s2 H. apply (pxc_bindR RA RB); [apply Hm; exact H|exact Hf]. Qed.
Lemma pxs_bind {A B} (m : PM A) (f : A -> PM B) : pxs m -> (forall a, pxs (f a)) -> pxs (pbind m f).
Proof. intros Hm Hf. apply (pxs_bindR eq eq); [exact Hm|]. intros a1 a2 ->. apply Hf. Qed.
Lemma pxsat_bind {A B} b (m : PM A) (f : A -> PM B) : pxsat b m -> (forall a, pxs (f a)) -> pxsat b (pbind m f).
Proof. intros Hm Hf s1 s2 H Hb. apply (pxc_bindR eq eq); [apply Hm; assumption|]. intros a1 a2 ->. apply Hf. Qed.

Lemma pxs_get_depth : pxs get_depth.
Proof. intros s1 s2 [Hr Hd]. right. unfold get_depth. cbn [fst snd rpres]. split; [exact Hd|split; assumption]. Qed.
Lemma pxs_set_depth d : pxs (set_depth d).
Proof. intros s1 s2 [Hr Hd]. right. unfold set_depth. cbn [fst snd rpres rd depth]. split; [reflexivity|split; [exact Hr|reflexivity]]. Qed.
Lemma pxs_dec_depth : pxs dec_depth.
Proof. unfold dec_depth. apply pxs_bind; [apply pxs_get_depth|]. intros d. destruct (d =? 0); [apply pxs_panic|apply pxs_set_depth]. Qed.
Lemma pxs_inc_depth : pxs inc_depth.
Proof. unfold inc_depth. apply pxs_bind; [apply pxs_get_depth|]. intros d. destruct (255 <=? d); [apply pxs_panic|apply pxs_set_depth]. Qed.
Lemma pxs_err {A} c : pxs (liftR (@peek_error A c)).
Proof. apply pxs_liftR. apply xs_peek_error. Qed.
Lemma pxs_enter_nesting : pxs enter_nesting.
Proof.
  unfold enter_nesting. apply pxs_bind; [apply pxs_dec_depth|]. intros _. apply pxs_bind; [apply pxs_get_depth|]. intros d.
  destruct (d =? 0); [|apply pxs_pret]. apply pxs_bind; [apply pxs_inc_depth|]. intros _. apply pxs_err.
Qed.

Lemma pxs_attempt {A} (m : PM A) : pxs m -> pxsR rres (attempt m) (attempt m).
Proof.
  intros Hm s1 s2 H. unfold pxc. rewrite !attempt_unfold. destruct (Hm s1 s2 H) as [E|[E Hr]].
  - left. destruct (m s2) as [[a|[e|k]] s2']; cbn [fst] in *; try discriminate. inversion E. reflexivity.
  - destruct (m s1) as [[a1|[e1|k1]] s1']; destruct (m s2) as [[a2|[e2|k2]] s2']; cbn [fst snd rpres] in *; try contradiction.
    + right. split; [exact E|exact Hr].
    + destruct e1 as [c1 l1 cl1|io1|]; destruct e2 as [c2 l2 cl2|io2|]; cbn [rerr] in E; try contradiction;
        right; cbn [fst snd rpres rres rerr]; (split; [exact E|exact Hr]).
    + right. split; [exact E|exact Hr].
Qed.
Lemma pxs_both {A} (r1 r2 : res A) (e1 e2 : res unit) : rres r1 r2 -> rres e1 e2 -> pxsR eq (both r1 e1) (both r2 e2).
Proof.
  intros Hr He s1 s2 H. right.
  destruct r1 as [a1|x1]; destruct r2 as [a2|x2]; cbn [rres] in Hr; try contradiction;
    destruct e1 as [u1|y1]; destruct e2 as [u2|y2]; cbn [rres] in He; try contradiction;
      cbn [both pret pfail fst snd rpres]; (split; [assumption|exact H]).
Qed.
Lemma pxs_lift {A} (r1 r2 : res A) : rres r1 r2 -> pxsR eq (lift r1) (lift r2).
Proof.
  intros Hr s1 s2 H. right. destruct r1 as [a1|x1]; destruct r2 as [a2|x2]; cbn [rres] in Hr; try contradiction;
    cbn [lift pret pfail fst snd rpres]; (split; [assumption|exact H]).
Qed.

Lemma pxs_nest_seq {A B} (body : PM A) (endm : M unit) (k : A -> PM B) :
  pxs body -> xs endm -> (forall a, pxs (k a)) ->
  pxs (pbind (attempt body) (fun r =>
       pbind inc_depth (fun _ =>
       pbind (attempt (liftR endm)) (fun e =>
       pbind (both r e) k)))).
Proof.
  intros Hb He Hk. apply (pxs_bindR rres eq); [apply pxs_attempt; exact Hb|]. intros r1 r2 Hr.
  apply (pxs_bindR eq eq); [apply pxs_inc_depth|]. intros u1 u2 _.
  apply (pxs_bindR rres eq); [apply pxs_attempt; apply pxs_liftR; exact He|]. intros e1 e2 Hee.
  apply (pxs_bindR eq eq); [apply pxs_both; assumption|]. intros a1 a2 ->. apply Hk.
Qed.
Lemma pxs_nest_quote {A B} (body : PM A) (k : A -> PM B) :
  pxs body -> (forall a, pxs (k a)) ->
  pxs (pbind (attempt body) (fun r => pbind inc_depth (fun _ => pbind (lift r) k))).
Proof.
  intros Hb Hk. apply (pxs_bindR rres eq); [apply pxs_attempt; exact Hb|]. intros r1 r2 Hr.
  apply (pxs_bindR eq eq); [apply pxs_inc_depth|]. intros u1 u2 _.
  apply (pxs_bindR eq eq); [apply pxs_lift; exact Hr|]. intros a1 a2 ->. apply Hk.
Qed.

Lemma pxs_bind_ws {A} fuel (k : option N -> PM A) :
  pxs (k None) -> (forall b, pxsat b (k (Some b))) -> pxs (pbind (liftR (parse_whitespace fuel)) k).
Proof.
  intros Hn Hs s1 s2 H. unfold pxc. rewrite !pbind_unfold. unfold liftR. destruct H as [Hr Hd].
  pose proof (ws_at_byte fuel (rd s2)) as Hb.
  destruct (xs_parse_whitespace fuel (rd s1) (rd s2) Hr) as [E|[E Hr']].
  - left. destruct (parse_whitespace fuel (rd s2)) as [[a|e] r2']; cbn [fst] in *; [discriminate|]. inversion E. reflexivity.
  - destruct (parse_whitespace fuel (rd s1)) as [[a1|e1] r1']; destruct (parse_whitespace fuel (rd s2)) as [[a2|e2] r2']; cbn [fst snd rres] in *; try contradiction.
    + subst a2. destruct a1 as [b|].
      * apply Hs; [split; [exact Hr'|exact Hd]|exact Hb].
      * apply Hn. split; [exact Hr'|exact Hd].
    + right. cbn [fst snd rpres]. split; [exact E|split; [exact Hr'|exact Hd]].
Qed.
Lemma pxsat_bind_position {A} b (k : N * N -> PM A) : (forall p, pxsat b (k p)) -> pxsat b (pbind (liftR position) k).
Proof.
  intros Hk s1 s2 H Hb. unfold pxc. rewrite !pbind_unfold. unfold liftR, position, r_position.
  pose proof H as [(K1 & K2 & Hl & Hc & Hi & Ha) Hd]. rewrite Hl, Hc.
  destruct s1 as [r1 d1], s2 as [r2 d2]. cbn [rd depth] in *. apply (Hk (rline r2, rcol r2)); assumption.
Qed.
Lemma pxs_position_then {A} (k : N * N -> PM A) : (forall p, pxs (k p)) -> pxs (pbind (liftR position) k).
Proof. intros Hk. apply pxs_bind; [apply pxs_liftR; apply xs_position|exact Hk]. Qed.

Section ParserCross.
  Variable ro : parse_options.
  Variable alpha : N -> bool.
  Variable fast : bool.
  Variable std_parse : N -> Z -> f64.

  Local Notation next_value := (next_value ro alpha fast std_parse).
  Local Notation parse_list := (parse_list ro alpha fast std_parse).
  Local Notation parse_vector := (parse_vector ro alpha fast std_parse).
  Local Notation next_datum := (next_datum ro alpha fast std_parse).
  Local Notation parse_list_meta := (parse_list_meta ro alpha fast std_parse).
  Local Notation parse_vector_meta := (parse_vector_meta ro alpha fast std_parse).
  Local Notation parse_token := (parse_token ro alpha fast std_parse).

  Lemma pxsat_token {A} fuel b (k : token -> PM A) : (forall tok, pxs (k tok)) -> pxsat b (pbind (liftR (parse_token fuel b)) k).
  Proof. intros Hk. apply pxsat_bind; [apply pxsat_liftR; apply xsat_parse_token|exact Hk]. Qed.
  Lemma pxsat_eat_peek {A} b (k : option N -> PM A) : (forall nx, pxs (k nx)) -> pxsat b (pbind (liftR (eat_char ;;; peek)) k).
  Proof. intros Hk. apply pxsat_bind; [apply pxsat_liftR; apply xsat_bind_eat; apply xs_peek|exact Hk]. Qed.

  Ltac pxs_rules :=
    first [ exact (fun b A => @pxsat_weaken A b) | exact (@pxs_pret) | exact (@pxs_fuel) | exact (@pxs_err) | exact (@pxs_bind)
          | exact (@pxs_bind_ws) | exact (fun b A fuel => @pxsat_token A fuel b) | exact (fun b A => @pxsat_eat_peek A b)
          | exact (fun b A => @pxsat_bind_position A b) | exact (@pxs_position_then)
          | exact (pxs_liftR _ xs_peek) | exact (fun fuel => pxs_liftR _ (xs_parse_whitespace fuel))
          | exact (fun fuel p => pxs_liftR _ (xs_parse_symbol_suffix fuel p))
          | exact (fun fuel close => pxs_liftR _ (xs_parse_byte_list fast std_parse fuel close))
          | exact (fun A B body k Hb Hk => pxs_bind _ _ pxs_enter_nesting (fun _ => @pxs_nest_quote A B body k Hb Hk))
          | exact (fun A B body fuel close k Hb Hk =>
                     pxs_bind _ _ pxs_enter_nesting (fun _ => @pxs_nest_seq A B body (end_seq fuel close) k Hb (xs_end_seq fuel close) Hk)) ].

  Theorem cross_values fuel :
    pxs (next_value fuel) /\ (forall t acc, pxs (parse_list fuel t acc)) /\ (forall t acc, pxs (parse_vector fuel t acc)).
  Proof. apply (pwalk_values ro alpha fast std_parse (@pxs) (fun b A => @pxsat A b)); pxs_rules. Qed.

  Theorem cross_datums fuel :
    pxs (next_datum fuel) /\ (forall t acc, pxs (parse_list_meta fuel t acc)) /\ (forall t acc, pxs (parse_vector_meta fuel t acc)).
  Proof. apply (pwalk_datums ro alpha fast std_parse (@pxs) (fun b A => @pxsat A b)); pxs_rules. Qed.

  Lemma pxs_expect_value fuel : pxs (expect_value ro alpha fast std_parse fuel).
  Proof. unfold expect_value. apply pxs_bind; [apply cross_values|]. intros o. destruct o; [apply pxs_pret|apply pxs_err]. Qed.
  Lemma pxs_expect_datum fuel : pxs (expect_datum ro alpha fast std_parse fuel).
  Proof. unfold expect_datum. apply pxs_bind; [apply cross_datums|]. intros o. destruct o; [apply pxs_pret|apply pxs_err]. Qed.
  Lemma pxs_expect_end fuel : pxs (expect_end_p fuel).
  Proof. unfold expect_end_p. apply pxs_liftR. apply xs_expect_end. Qed.

  Lemma init_prel (s : bytes) : prel (init_state SrcSlice (bytes_events s)) (init_state SrcIo (bytes_events s)).
  Proof.
    unfold prel, init_state, mk_reader, rel. cbn [rd depth rk rline rcol rinput]. repeat split.
    unfold allb, bytes_events. induction s as [|b s IH]; cbn [map]; constructor; [exact I|exact IH].
  Qed.

  Theorem from_trait_cross (s : bytes) :
    from_trait ro alpha fast std_parse SrcIo (bytes_events s) = PErr (XErr EFuel) \/
    rpres eq (from_trait ro alpha fast std_parse SrcSlice (bytes_events s)) (from_trait ro alpha fast std_parse SrcIo (bytes_events s)).
  Proof.
    unfold from_trait. cbv zeta.
    assert (H : pxs (pbind (expect_value ro alpha fast std_parse (fuel_for (bytes_events s)))
                       (fun v => pbind (expect_end_p (fuel_for (bytes_events s))) (fun _ => pret v)))).
    { apply pxs_bind; [apply pxs_expect_value|]. intros v. apply pxs_bind; [apply pxs_expect_end|intros; apply pxs_pret]. }
    destruct (H _ _ (init_prel s)) as [E|[E _]]; [left; exact E|right; exact E].
  Qed.
  Theorem datum_from_trait_cross (s : bytes) :
    datum_from_trait ro alpha fast std_parse SrcIo (bytes_events s) = PErr (XErr EFuel) \/
    rpres eq (datum_from_trait ro alpha fast std_parse SrcSlice (bytes_events s)) (datum_from_trait ro alpha fast std_parse SrcIo (bytes_events s)).
  Proof.
    unfold datum_from_trait. cbv zeta.
    assert (H : pxs (pbind (expect_datum ro alpha fast std_parse (fuel_for (bytes_events s)))
                       (fun v => pbind (expect_end_p (fuel_for (bytes_events s))) (fun _ => pret v)))).
    { apply pxs_bind; [apply pxs_expect_datum|]. intros v. apply pxs_bind; [apply pxs_expect_end|intros; apply pxs_pret]. }
    destruct (H _ _ (init_prel s)) as [E|[E _]]; [left; exact E|right; exact E].
  Qed.
End ParserCross.
