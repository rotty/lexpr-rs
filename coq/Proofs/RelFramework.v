(* The walk: a judgement on reader computations that is closed under
   sequencing and holds of the reader primitives holds of every scanner, number
   routine and token function (Section Walk); the same for the parser proper,
   through next_value / next_datum (Section PWalk). Section RelM is the instance
   for one run, `sat R0` with R0 a relation between "reader before, error if
   any, reader after". DESIGN.md ("The walk") lists the instances. *)
From Coq Require Import SpecFloat Lia ZifyBool ZifyNat ZifyN.
Require Import Base Value Float PrintOptions ParseOptions Utf8 Reader Scan Num NumberOps Parser.

(* SliceRead's bulk steps as primitives *)
Definition take_run : M (bytes * option N) :=
  fun s =>
    let '(run, rest) := span_plain (rinput s) [] in
    let s1 := advance_over s run rest in
    match rest with
    | EByte b :: rest' => (Ok (run, Some b), consume s1 b rest')
    | _ => (Ok (run, None), s1)
    end.

Definition take_symbol_run : M (bytes * bool) :=
  fun s =>
    let '(scanned, rest) := span_symbol (rinput s) [] in
    (Ok (scanned, match rest with [] => true | _ => false end), advance_over s scanned rest).

(* the last arm of parse_token (an unexpected byte is reported and dropped), named so that it can be a rule of the walk *)
Definition error_consume {A} (c : errcode) : M A :=
  fun s => let '(r, s') := peek_error (A := A) c s in (r, r_discard s').

Lemma scan_symbol_slice_eq scratch r :
  scan_symbol_slice scratch r =
  (p <- take_symbol_run ;;
   let whole := scratch ++ fst p in
   if snd p && is_truncated_symbol whole then error EofWhileParsingValue
   else if beq_bytes whole [46] then error InvalidSymbol else ret whole) r.
Proof.
  unfold scan_symbol_slice, take_symbol_run, bind. destruct (span_symbol (rinput r) []) as [scanned rest].
  cbn [fst snd]. destruct (_ && _); [reflexivity|]. destruct (beq_bytes _ _); reflexivity.
Qed.

Lemma r6rs_str_slice_eq f scratch r :
  r6rs_str_slice (S f) scratch r =
  (p <- take_run ;;
   match snd p with
   | Some b => if b =? 34 then ret (scratch ++ fst p)
               else e <- parse_r6rs_escape f ;; r6rs_str_slice f (scratch ++ fst p ++ e)
   | None => error EofWhileParsingString
   end) r.
Proof.
  cbn [r6rs_str_slice]. unfold take_run, bind. destruct (span_plain (rinput r) []) as [run rest].
  destruct rest as [|[b| |e] rest']; cbn [fst snd]; try reflexivity; destruct (b =? 34); reflexivity.
Qed.

Lemma elisp_str_slice_eq f fl scratch r :
  elisp_str_slice (S f) fl scratch r =
  (p <- take_run ;;
   let fl1 := if existsb (fun b => 127 <? b) (fst p)
              then {| seen_ub := seen_ub fl; seen_mb := seen_mb fl; seen_na := true |} else fl in
   match snd p with
   | Some b => if b =? 34 then elisp_finish fl1 (scratch ++ fst p)
               else x <- parse_elisp_escape f ;;
                    elisp_str_slice f (note_escape fl1 (snd x)) (scratch ++ fst p ++ fst x)
   | None => error EofWhileParsingString
   end) r.
Proof.
  cbn [elisp_str_slice]. unfold take_run, bind. destruct (span_plain (rinput r) []) as [run rest].
  destruct rest as [|[b| |e] rest']; cbn [fst snd]; try reflexivity; destruct (b =? 34); reflexivity.
Qed.

Lemma consume_input r b l : rinput (consume r b l) = l.
Proof. unfold consume. destruct (advance _ _ _). reflexivity. Qed.
Lemma consume_rk r b l : rk (consume r b l) = rk r.
Proof. unfold consume. destruct (advance _ _ _). reflexivity. Qed.
Lemma advance_over_input r bs rest : rinput (advance_over r bs rest) = rest.
Proof. unfold advance_over. destruct (fold_left _ bs _). reflexivity. Qed.
Lemma skip_intr_head l : match skip_intr l with EInterrupted :: _ => False | _ => True end.
Proof. induction l as [|[b| |e] l IH]; cbn [skip_intr]; auto. Qed.

Definition erase {A} (x : res A) : option perr := match x with Ok _ => None | Err e => Some e end.

Definition at_byte (b : N) (r : reader) : Prop := rpending r = true /\ exists l, rinput r = EByte b :: l.

Lemma peek_at b r : at_byte b r -> r_peek r = (Ok (Some b), r).
Proof. intros [Hp [l Hl]]. unfold r_peek. rewrite Hp, Hl. reflexivity. Qed.
Lemma advance_over_rk r bs rest : rk (advance_over r bs rest) = rk r.
Proof. unfold advance_over. destruct (fold_left _ _ _). reflexivity. Qed.

(* a postcondition on successful results, whatever the reader *)
Definition always {A} (q : A -> Prop) (m : M A) : Prop := forall r, match m r with (Ok a, _) => q a | (Err _, _) => True end.

Lemma always_ret {A} (q : A -> Prop) a : q a -> always q (ret a).
Proof. intros H r. exact H. Qed.
Lemma always_bind {A B} (p : A -> Prop) (q : B -> Prop) (m : M A) (f : A -> M B) :
  always p m -> (forall a, p a -> always q (f a)) -> always q (bind m f).
Proof. intros Hm H r. unfold bind. specialize (Hm r). destruct (m r) as [[a|e] r1]; [apply H, Hm|exact I]. Qed.
Lemma always_skip {A B} (q : B -> Prop) (m : M A) (f : A -> M B) : (forall a, always q (f a)) -> always q (bind m f).
Proof. intros H r. unfold bind. destruct (m r) as [[a|e] r1]; [apply H|exact I]. Qed.
Lemma always_weaken {A} (p q : A -> Prop) (m : M A) : (forall a, p a -> q a) -> always p m -> always q m.
Proof. intros H Hm r. specialize (Hm r). destruct (m r) as [[a|e] r1]; [apply H, Hm|exact I]. Qed.
Lemma always_err {A} (q : A -> Prop) c : always q (error c) /\ always q (peek_error c).
Proof. split; intros r; [unfold error; destruct (r_position r)|unfold peek_error; destruct (r_peek_position r)]; exact I. Qed.
Lemma always_fuel {A} (q : A -> Prop) : always q out_of_fuel.
Proof. intros r. exact I. Qed.
Lemma always_ext {A} (m m' : M A) q : (forall r, m r = m' r) -> always q m' -> always q m.
Proof. intros E H r. rewrite E. apply H. Qed.
(* for a computation all of whose results satisfy q by construction *)
Ltac alw :=
  repeat first
    [ apply always_ret; first [exact I | reflexivity | assumption]
    | apply always_err
    | apply always_skip; intros ?
    | match goal with
      | |- always _ (match ?x with _ => _ end) => destruct x
      | |- always _ (if ?x then _ else _) => destruct x
      end ].

Lemma skip_split suf :
  (skip_intr suf = [] /\ forall X, skip_intr (suf ++ X) = skip_intr X) \/
  (exists ev s', skip_intr suf = ev :: s' /\ ev <> EInterrupted /\ forall X, skip_intr (suf ++ X) = ev :: s' ++ X).
Proof.
  induction suf as [|[b| |e0] s IH]; cbn [skip_intr app].
  - left. split; reflexivity.
  - right. exists (EByte b), s. repeat split; try reflexivity. discriminate.
  - exact IH.
  - right. exists (EFail e0), s. repeat split; try reflexivity. discriminate.
Qed.
Lemma overflow_false_le a radix b c : (radix = 2 \/ radix = 8 \/ radix = 10 \/ radix = 16) -> b < radix -> overflow_N a radix b c = false -> a * radix + b <= c.
Proof. intros [->|[->|[->| ->]]]; unfold overflow_N; intros Hb H; lia. Qed.
Lemma digit_val_lt l c d : digit_val l c = Some d -> d < 16.
Proof.
  unfold digit_val, in_range. destruct ((48 <=? c) && (c <=? 57))%bool eqn:E1; [intros H; inversion H; lia|].
  destruct (l && ((97 <=? c) && (c <=? 102)))%bool eqn:E2; [intros H; inversion H; lia|].
  destruct (l && ((65 <=? c) && (c <=? 70)))%bool eqn:E3; [intros H; inversion H; lia|discriminate].
Qed.
Lemma bind_assoc {A B C} (m : M A) (f : A -> M B) (g : B -> M C) r :
  bind (bind m f) g r = bind m (fun a => bind (f a) g) r.
Proof. unfold bind. destruct (m r) as [[a|e] r1]; reflexivity. Qed.
Lemma bind_ret_r {A} (m : M A) r : m r = bind m ret r.
Proof. unfold bind, ret. destruct (m r) as [[a|e] r1]; reflexivity. Qed.
Lemma pbind_unfold {A B} (m : PM A) (f : A -> PM B) s :
  pbind m f s = match m s with (POk a, s') => f a s' | (PErr e, s') => (PErr e, s') end.
Proof. reflexivity. Qed.
Lemma attempt_unfold {A} (m : PM A) s :
  attempt m s = match m s with
                | (POk a, s') => (POk (Ok a), s')
                | (PErr (XErr EFuel), s') => (PErr (XErr EFuel), s')
                | (PErr (XPanic k), s') => (PErr (XPanic k), s')
                | (PErr (XErr e), s') => (POk (Err e), s')
                end.
Proof. reflexivity. Qed.

(* peek_or_null reports the end of the input as the byte 0, which is not
   pending: the branch for it must do without Jat, so the tests the code applies
   to that byte are computed away first (at_zero) *)
Lemma is_digit_0 : is_digit 0 = false.  Proof. reflexivity. Qed.
Lemma digit_val_0 l : digit_val l 0 = None.
Proof. unfold digit_val. cbn. destruct l; reflexivity. Qed.
Ltac at_zero :=
  cbv beta; rewrite ?is_digit_0, ?digit_val_0;
  repeat match goal with
         | |- context [0 =? ?k] =>
             let v := eval vm_compute in (0 =? k) in
             match v with true => idtac | false => idtac end; change (0 =? k) with v
         end;
  cbn [orb andb negb]; cbv iota.

Create HintDb walk discriminated.

(* A judgement J on reader computations, with a form Jat b for code that runs
   while the byte b is pending (peeked, not yet consumed): readers that tell a
   peeked byte from an unread one justify a discard only there. The primitives
   come in continuation form, so that what follows a peek may use the byte it
   found. Each lemma of the section depends on the rules its function needs
   and no others. *)
Section Walk.
  Variable J : forall A, M A -> Prop.
  Variable Jat : N -> forall A, M A -> Prop.
  Hypothesis J_ext : forall A (m m' : M A), (forall r, m r = m' r) -> J A m' -> J A m.
  Hypothesis Jat_ext : forall b A (m m' : M A), (forall r, m r = m' r) -> Jat b A m' -> Jat b A m.
  Hypothesis Jat_weaken : forall b A (m : M A), J A m -> Jat b A m.
  Hypothesis J_ret : forall A (a : A), J A (ret a).
  Hypothesis J_fuel : forall A, J A out_of_fuel.
  Hypothesis J_error : forall A c, J A (error c).
  Hypothesis J_peek_error : forall A c, J A (peek_error c).
  Hypothesis J_bind : forall A B (m : M A) (f : A -> M B), J A m -> (forall a, J B (f a)) -> J B (bind m f).
  Hypothesis Jat_bind : forall b A B (m : M A) (f : A -> M B), Jat b A m -> (forall a, J B (f a)) -> Jat b B (bind m f).
  Hypothesis J_bind_peek : forall A (k : option N -> M A), J A (k None) -> (forall b, Jat b A (k (Some b))) -> J A (bind peek k).
  Hypothesis J_bind_next : forall A (k : option N -> M A), J A (k None) -> (forall c, J A (k (Some c))) -> J A (bind next_char k).
  Hypothesis Jat_bind_eat : forall b A (m : M A), J A m -> Jat b A (bind eat_char (fun _ => m)).

  Lemma J_peek : J _ peek.
  Proof. apply (J_ext _ _ (bind peek ret)); [apply bind_ret_r|]. apply J_bind_peek; [|intros b; apply Jat_weaken]; apply J_ret. Qed.
  Lemma J_next : J _ next_char.
  Proof. apply (J_ext _ _ (bind next_char ret)); [apply bind_ret_r|]. apply J_bind_next; intros; apply J_ret. Qed.
  Lemma Jat_eat b : Jat b _ eat_char.
  Proof. apply (Jat_ext b _ _ (bind eat_char (fun _ => ret tt))); [reflexivity|]. apply Jat_bind_eat, J_ret. Qed.

  Lemma peek_or_null_bind {A} (k : N -> M A) r :
    bind peek_or_null k r = bind peek (fun o => k (match o with Some b => b | None => 0 end)) r.
  Proof. unfold peek_or_null. rewrite bind_assoc. reflexivity. Qed.
  Lemma J_bind_peek_or_null {A} (k : N -> M A) : J _ (k 0) -> (forall b, Jat b _ (k b)) -> J _ (bind peek_or_null k).
  Proof. intros H0 Hb. eapply J_ext; [apply peek_or_null_bind|]. apply J_bind_peek; [exact H0|exact Hb]. Qed.
  Lemma walk_peek_or_null : J _ peek_or_null.
  Proof. unfold peek_or_null. apply J_bind; [apply J_peek|intros; apply J_ret]. Qed.

  Ltac walk_step :=
    first
      [ apply J_ret | apply J_fuel | apply J_error | apply J_peek_error
      | apply J_peek | apply J_next | apply walk_peek_or_null
      | solve [auto 1 with walk nocore | apply Jat_weaken; auto 1 with walk nocore]
      | apply Jat_bind_eat
      | apply Jat_eat
      | apply J_bind_peek; [|intros ?]
      | apply J_bind_peek_or_null; [at_zero|intros ?]
      | apply J_bind_next; [|intros ?]
      | match goal with
        | |- J _ (match ?x with _ => _ end) => destruct x
        | |- J _ (if ?x then _ else _) => destruct x
        | |- J _ (let '(_, _) := ?x in _) => destruct x
        | |- Jat _ _ (match ?x with _ => _ end) => destruct x
        | |- Jat _ _ (if ?x then _ else _) => destruct x
        | |- Jat _ _ (let '(_, _) := ?x in _) => destruct x
        end
      | apply J_bind; [|intros ?]
      | apply Jat_bind; [|intros ?]
      | apply Jat_weaken ].
  Ltac walk := repeat walk_step.

  Lemma walk_next_or_eof : J _ next_or_eof.
  Proof. unfold next_or_eof. walk. Qed.
  Lemma walk_next_or_eof_char : J _ next_or_eof_char.
  Proof. unfold next_or_eof_char. walk. Qed.
  Lemma walk_as_str b : J _ (Scan.as_str b).
  Proof. unfold Scan.as_str. walk. Qed.
  Hint Resolve walk_next_or_eof walk_next_or_eof_char walk_as_str : walk.

  Lemma walk_hex_escape_loop fuel : forall n, J _ (hex_escape_loop fuel n).
  Proof. induction fuel as [|f IH]; intros n; cbn [hex_escape_loop]; walk. Qed.
  Hint Resolve walk_hex_escape_loop : walk.
  Lemma walk_parse_r6rs_escape fuel : J _ (parse_r6rs_escape fuel).
  Proof. unfold parse_r6rs_escape, decode_r6rs_hex_escape. walk. Qed.
  Hint Resolve walk_parse_r6rs_escape : walk.
  Lemma walk_elisp_hex_loop fuel : forall n, J _ (elisp_hex_loop fuel n).
  Proof. induction fuel as [|f IH]; intros n; cbn [elisp_hex_loop]; walk. Qed.
  Lemma walk_decode_elisp_uni_escape k : forall n, J _ (decode_elisp_uni_escape k n).
  Proof. induction k as [|k IH]; intros n; cbn [decode_elisp_uni_escape]; walk. Qed.
  Lemma walk_elisp_octal_loop fuel : forall n, J _ (elisp_octal_loop fuel n).
  Proof. induction fuel as [|f IH]; intros n; cbn [elisp_octal_loop]; walk. Qed.
  Lemma walk_elisp_char_escape_of n : J _ (elisp_char_escape_of n).
  Proof. unfold elisp_char_escape_of. walk. Qed.
  Lemma walk_elisp_uni_escape_of n : J _ (elisp_uni_escape_of n).
  Proof. unfold elisp_uni_escape_of. walk. Qed.
  Hint Resolve walk_elisp_hex_loop walk_decode_elisp_uni_escape walk_elisp_octal_loop
    walk_elisp_char_escape_of walk_elisp_uni_escape_of : walk.
  Lemma walk_parse_elisp_escape fuel : J _ (parse_elisp_escape fuel).
  Proof. unfold parse_elisp_escape, decode_elisp_hex_escape, decode_elisp_octal_escape. walk. Qed.
  Lemma walk_elisp_finish fl scratch : J _ (elisp_finish fl scratch).
  Proof. unfold elisp_finish. walk. Qed.
  Hint Resolve walk_parse_elisp_escape walk_elisp_finish : walk.

  Lemma walk_take_bytes k : forall acc, J _ (take_bytes k acc).
  Proof. induction k as [|k IH]; intros acc; cbn [take_bytes]; walk. Qed.
  Hint Resolve walk_take_bytes : walk.
  Lemma walk_decode_utf8_sequence_b c : J _ (decode_utf8_sequence_b c).
  Proof. unfold decode_utf8_sequence_b. walk. Qed.
  Hint Resolve walk_decode_utf8_sequence_b : walk.
  Lemma walk_decode_utf8_sequence c : J _ (decode_utf8_sequence c).
  Proof. unfold decode_utf8_sequence. walk. Qed.
  Lemma walk_r6rs_char_hex_loop fuel : forall n first, J _ (r6rs_char_hex_loop fuel n first).
  Proof. induction fuel as [|f IH]; intros n first; cbn [r6rs_char_hex_loop]; walk. Qed.
  Lemma walk_char_name_loop fuel : forall scratch, J _ (char_name_loop fuel scratch).
  Proof. induction fuel as [|f IH]; intros scratch; cbn [char_name_loop]; walk. Qed.
  Lemma walk_open_ended_char n : J _ (open_ended_char n).
  Proof. unfold open_ended_char. walk. Qed.
  Hint Resolve walk_decode_utf8_sequence walk_r6rs_char_hex_loop walk_char_name_loop walk_open_ended_char : walk.
  Lemma walk_parse_r6rs_char fuel : J _ (parse_r6rs_char fuel).
  Proof. unfold parse_r6rs_char. walk. Qed.
  Lemma walk_as_char n : J _ (Scan.as_char n).
  Proof. unfold Scan.as_char. walk. Qed.
  Hint Resolve walk_parse_r6rs_char walk_as_char : walk.
  Lemma walk_decode_elisp_char_escape fuel : J _ (decode_elisp_char_escape fuel).
  Proof. unfold decode_elisp_char_escape, decode_elisp_hex_escape, decode_elisp_octal_escape. walk. Qed.
  Hint Resolve walk_decode_elisp_char_escape : walk.
  Lemma walk_parse_elisp_char fuel : J _ (parse_elisp_char fuel).
  Proof. unfold parse_elisp_char. walk. Qed.
  Hint Resolve walk_parse_elisp_char : walk.

  Lemma walk_scan_symbol_io fuel : forall scratch, J _ (scan_symbol_io fuel scratch).
  Proof. induction fuel as [|f IH]; intros scratch; cbn [scan_symbol_io]; walk. Qed.
  Lemma walk_r6rs_str_io fuel : forall scratch, J _ (r6rs_str_io fuel scratch).
  Proof. induction fuel as [|f IH]; intros scratch; cbn [r6rs_str_io]; walk. Qed.
  Lemma walk_elisp_str_io fuel : forall fl scratch, J _ (elisp_str_io fuel fl scratch).
  Proof. induction fuel as [|f IH]; intros fl scratch; cbn [elisp_str_io]; cbv zeta; walk. Qed.

  Variable fast : bool.
  Variable std_parse : N -> Z -> f64.
  Lemma walk_fast_loop fuel : forall f e, J _ (f64_from_parts_fast_loop fuel f e).
  Proof. induction fuel as [|k IH]; intros f e; cbn [f64_from_parts_fast_loop]; walk. Qed.
  Hint Resolve walk_fast_loop : walk.
  Lemma walk_f64_from_parts pos sig e : J _ (f64_from_parts fast std_parse pos sig e).
  Proof. unfold f64_from_parts. cbv zeta. walk. Qed.
  Hint Resolve walk_f64_from_parts : walk.
  Lemma walk_skip_digits fuel : J _ (skip_digits fuel).
  Proof. induction fuel as [|f IH]; cbn [skip_digits]; walk. Qed.
  Hint Resolve walk_skip_digits : walk.
  Lemma walk_parse_exponent_overflow fuel p s pe : J _ (parse_exponent_overflow fuel p s pe).
  Proof. unfold parse_exponent_overflow. walk. Qed.
  Hint Resolve walk_parse_exponent_overflow : walk.
  Lemma walk_exponent_digits fuel : forall p s pe se e, J _ (exponent_digits fast std_parse fuel p s pe se e).
  Proof. induction fuel as [|f IH]; intros p s pe se e; cbn [exponent_digits]; cbv zeta; walk. Qed.
  Hint Resolve walk_exponent_digits : walk.
  Lemma walk_parse_exponent fuel p s se b : Jat b _ (parse_exponent fast std_parse fuel p s se).
  Proof. unfold parse_exponent. walk. Qed.
  Hint Resolve walk_parse_exponent : walk.
  Lemma walk_decimal_digits fuel : forall s e o, J _ (decimal_digits fuel s e o).
  Proof. induction fuel as [|f IH]; intros s e o; cbn [decimal_digits]; cbv zeta; walk. Qed.
  Hint Resolve walk_decimal_digits : walk.
  Lemma walk_parse_decimal fuel p s e b : Jat b _ (parse_decimal fast std_parse fuel p s e).
  Proof. unfold parse_decimal. walk. Qed.
  Hint Resolve walk_parse_decimal : walk.
  Lemma walk_parse_long_integer fuel : forall radix p s e, J _ (parse_long_integer fast std_parse fuel radix p s e).
  Proof. induction fuel as [|f IH]; intros radix p s e; cbn [parse_long_integer]; cbv zeta; walk. Qed.
  Hint Resolve walk_parse_long_integer : walk.
  Lemma walk_parse_num_tail fuel radix p s : J _ (parse_num_tail fast std_parse fuel radix p s).
  Proof. unfold parse_num_tail. walk. Qed.
  Hint Resolve walk_parse_num_tail : walk.
  Lemma walk_num_literal_loop fuel : forall radix p s, J _ (num_literal_loop fast std_parse fuel radix p s).
  Proof. induction fuel as [|f IH]; intros radix p s; cbn [num_literal_loop]; walk. Qed.
  Hint Resolve walk_num_literal_loop : walk.
  Lemma walk_parse_num_literal fuel radix p : J _ (parse_num_literal fast std_parse fuel radix p).
  Proof. unfold parse_num_literal. walk. Qed.
  Hint Resolve walk_parse_num_literal : walk.
  Lemma walk_parse_num_token fuel radix p : J _ (parse_num_token fast std_parse fuel radix p).
  Proof. unfold parse_num_token. walk. Qed.
  Hint Resolve walk_parse_num_token : walk.
  Lemma walk_parse_radix_literal fuel radix : J _ (parse_radix_literal fast std_parse fuel radix).
  Proof. unfold parse_radix_literal. walk. Qed.
  Hint Resolve walk_parse_radix_literal : walk.
  Lemma walk_parse_number fuel : J _ (parse_number fast std_parse fuel).
  Proof. unfold parse_number. walk. Qed.
  Hint Resolve walk_parse_number : walk.

  Lemma walk_skip_comment fuel : J _ (skip_comment fuel).
  Proof. induction fuel as [|f IH]; cbn [skip_comment]; walk. Qed.
  Hint Resolve walk_skip_comment : walk.
  (* what follows parse_whitespace runs on the byte it stopped at *)
  Lemma J_bind_ws {A} fuel (k : option N -> M A) :
    J _ (k None) -> (forall b, Jat b _ (k (Some b))) -> J _ (bind (parse_whitespace fuel) k).
  Proof.
    intros Hn Hs. induction fuel as [|f IH]; cbn [parse_whitespace]; [walk|].
    eapply J_ext; [intros r; apply bind_assoc|]. apply J_bind_peek; [walk; exact Hn|]. intros b.
    destruct (b =? 59).
    - eapply Jat_ext; [intros r; apply bind_assoc|]. apply Jat_weaken. apply J_bind; [walk|]. intros [|]; [exact IH|walk; exact Hn].
    - destruct (memb b [32; 10; 9; 13; 12]).
      + eapply Jat_ext; [intros r; apply bind_assoc|]. apply Jat_bind_eat. exact IH.
      + eapply Jat_ext; [intros r; reflexivity|]. apply Hs.
  Qed.
  Lemma walk_parse_whitespace fuel : J _ (parse_whitespace fuel).
  Proof. eapply J_ext; [apply bind_ret_r|]. apply J_bind_ws; [|intros b; apply Jat_weaken]; apply J_ret. Qed.
  Hint Resolve walk_parse_whitespace : walk.
  Lemma walk_expect_ident ident : J _ (expect_ident ident).
  Proof. induction ident as [|c ident IH]; cbn [expect_ident]; walk. Qed.
  Hint Resolve walk_expect_ident : walk.
  Lemma walk_end_seq fuel close : J _ (end_seq fuel close).
  Proof. unfold end_seq. apply J_bind_ws; [|intros b]; walk. Qed.
  Lemma walk_expect_end fuel : J _ (expect_end fuel).
  Proof. unfold expect_end. walk. Qed.
  Lemma walk_byte_list_loop fuel : forall close acc, J _ (byte_list_loop fast std_parse fuel close acc).
  Proof. induction fuel as [|f IH]; intros close acc; cbn [byte_list_loop]; [walk|]. apply J_bind_ws; [|intros b]; walk. Qed.
  Hint Resolve walk_byte_list_loop : walk.
  Lemma walk_parse_byte_list fuel close : J _ (parse_byte_list fast std_parse fuel close).
  Proof. unfold parse_byte_list. apply J_bind_ws; [|intros b]; walk. Qed.

  (* SliceRead's bulk scanners, from its two bulk steps *)
  Section Slice.
    Hypothesis J_take_run : J _ take_run.
    Hypothesis J_take_symbol : J _ take_symbol_run.
    Lemma walk_scan_symbol_slice scratch : J _ (scan_symbol_slice scratch).
    Proof. eapply J_ext; [intros r; apply scan_symbol_slice_eq|]. cbv zeta. walk. Qed.
    Lemma walk_r6rs_str_slice fuel : forall scratch, J _ (r6rs_str_slice fuel scratch).
    Proof.
      induction fuel as [|f IH]; intros scratch; [cbn [r6rs_str_slice]; walk|].
      eapply J_ext; [intros r; apply r6rs_str_slice_eq|]. walk.
    Qed.
    Lemma walk_elisp_str_slice fuel : forall fl scratch, J _ (elisp_str_slice fuel fl scratch).
    Proof.
      induction fuel as [|f IH]; intros fl scratch; [cbn [elisp_str_slice]; walk|].
      eapply J_ext; [intros r; apply elisp_str_slice_eq|]. cbv zeta. walk.
    Qed.
  End Slice.

  (* the three Read methods that differ per source are premises *)
  Section Tokens.
    Hypothesis J_symbol_rd : forall fuel scratch, J _ (parse_symbol_rd fuel scratch).
    Hypothesis J_r6rs_str_rd : forall fuel, J _ (parse_r6rs_str_rd fuel).
    Hypothesis J_elisp_str_rd : forall fuel, J _ (parse_elisp_str_rd fuel).
    Hypothesis Jat_error_consume : forall b A c, Jat b A (error_consume c).
    Variable ro : parse_options.
    Variable alpha : N -> bool.
    Lemma walk_parse_symbol fuel : J _ (parse_symbol fuel).
    Proof. apply J_symbol_rd. Qed.
    Lemma walk_parse_symbol_suffix fuel p : J _ (parse_symbol_suffix fuel p).
    Proof. apply J_symbol_rd. Qed.
    Hint Resolve walk_parse_symbol walk_parse_symbol_suffix : walk.
    Lemma walk_parse_token fuel b : Jat b _ (parse_token ro alpha fast std_parse fuel b).
    Proof. unfold parse_token. fold (@error_consume token ExpectedSomeValue). walk. Qed.
  End Tokens.
End Walk.

(* The rules in continuation form, for a judgement that ignores the pending byte. *)
Section Plain.
  Variable P : forall A, M A -> Prop.
  Hypothesis P_bind : forall A B (m : M A) (f : A -> M B), P A m -> (forall a, P B (f a)) -> P B (bind m f).
  Lemma plain_bind_peek : P _ peek -> forall A (k : option N -> M A), P A (k None) -> (forall b, P A (k (Some b))) -> P A (bind peek k).
  Proof. intros H A k Hn Hs. apply P_bind; [exact H|]. intros [b|]; [apply Hs|exact Hn]. Qed.
  Lemma plain_bind_next : P _ next_char -> forall A (k : option N -> M A), P A (k None) -> (forall c, P A (k (Some c))) -> P A (bind next_char k).
  Proof. intros H A k Hn Hs. apply P_bind; [exact H|]. intros [b|]; [apply Hs|exact Hn]. Qed.
  Lemma plain_bind_eat : P _ eat_char -> forall (b : N) A (m : M A), P A m -> P A (bind eat_char (fun _ => m)).
  Proof. intros H b A m Hm. apply P_bind; [exact H|]. intros _. exact Hm. Qed.
End Plain.

(* [plain_walk P lem ext ret fuel error peek_error bind peek next eat error_consume]
   proves [P _ (f ..)] by [lem] = walk_f for a judgement P that ignores the
   pending byte, from P's rules in that order: it applies lem at J := P,
   Jat b := P and closes each premise - a rule of Section Walk, recognised by
   its type - from the rule given, in continuation form where needed. A lemma
   stated for Jat b leaves b undetermined here: 0 is taken. Premises that are
   not rules (take_run, the three *_rd methods) are left to the caller. *)
Ltac plain_walk P lem ext ret fuel err perr bnd pk nx eat econs :=
  first [apply (lem P (fun _ : N => P)) | apply (lem P)];
  first [ exact ext | exact (fun _ : N => ext) | exact (fun (_ : N) A (m : M A) (H : P A m) => H)
        | exact ret | exact fuel | exact err | exact perr | exact bnd | exact (fun _ : N => bnd)
        | exact (plain_bind_peek P bnd pk)
        | exact (plain_bind_next P bnd nx) | exact (plain_bind_eat P bnd eat) | exact (fun _ : N => econs)
        | exact 0%N | idtac ].

(* The same for the parser proper: a judgement PJ on parser computations
   (PJat b: while the byte b is pending) that holds of the steps next_value /
   next_datum are made of - whitespace and the token dispatched on the byte it
   stops at, the nesting prologue and the cleanup around end_seq, the reader
   steps of the list loop - holds of next_value, parse_list and parse_vector
   and of their location-tracking duplicates. *)
Section PWalk.
  Variable ro : parse_options.
  Variable alpha : N -> bool.
  Variable fast : bool.
  Variable std_parse : N -> Z -> f64.
  Variable PJ : forall A, PM A -> Prop.
  Variable PJat : N -> forall A, PM A -> Prop.
  Hypothesis PJat_weaken : forall b A (m : PM A), PJ A m -> PJat b A m.
  Hypothesis PJ_pret : forall A (a : A), PJ A (pret a).
  Hypothesis PJ_fuel : forall A, PJ A (pfail (XErr EFuel)).
  Hypothesis PJ_err : forall A c, PJ A (liftR (peek_error c)).
  Hypothesis PJ_bind : forall A B (m : PM A) (f : A -> PM B), PJ A m -> (forall a, PJ B (f a)) -> PJ B (pbind m f).
  Hypothesis PJ_bind_ws : forall A fuel (k : option N -> PM A),
    PJ A (k None) -> (forall b, PJat b A (k (Some b))) -> PJ A (pbind (liftR (parse_whitespace fuel)) k).
  Hypothesis PJat_bind_token : forall b A fuel (k : token -> PM A),
    (forall tok, PJ A (k tok)) -> PJat b A (pbind (liftR (parse_token ro alpha fast std_parse fuel b)) k).
  Hypothesis PJat_bind_eat_peek : forall b A (k : option N -> PM A),
    (forall nx, PJ A (k nx)) -> PJat b A (pbind (liftR (eat_char ;;; peek)) k).
  Hypothesis PJat_bind_position : forall b A (k : N * N -> PM A),
    (forall p, PJat b A (k p)) -> PJat b A (pbind (liftR position) k).
  Hypothesis PJ_bind_position : forall A (k : N * N -> PM A), (forall p, PJ A (k p)) -> PJ A (pbind (liftR position) k).
  Hypothesis PJ_peek : PJ _ (liftR peek).
  Hypothesis PJ_ws : forall fuel, PJ _ (liftR (parse_whitespace fuel)).
  Hypothesis PJ_symbol_suffix : forall fuel p, PJ _ (liftR (parse_symbol_suffix fuel p)).
  Hypothesis PJ_byte_list : forall fuel close, PJ _ (liftR (parse_byte_list fast std_parse fuel close)).
  (* a nested form: the prologue, the body with its error held back, the budget
     restored, then the closer (lists, vectors) or nothing (quotations) *)
  Hypothesis PJ_nest_seq : forall A B (body : PM A) fuel close (k : A -> PM B), PJ A body -> (forall a, PJ B (k a)) ->
    PJ B (pbind enter_nesting (fun _ => pbind (attempt body) (fun r => pbind inc_depth (fun _ =>
          pbind (attempt (liftR (end_seq fuel close))) (fun e => pbind (both r e) k))))).
  Hypothesis PJ_nest_quote : forall A B (body : PM A) (k : A -> PM B), PJ A body -> (forall a, PJ B (k a)) ->
    PJ B (pbind enter_nesting (fun _ => pbind (attempt body) (fun r => pbind inc_depth (fun _ => pbind (lift r) k)))).

  Local Notation next_value := (next_value ro alpha fast std_parse).
  Local Notation parse_list := (parse_list ro alpha fast std_parse).
  Local Notation parse_vector := (parse_vector ro alpha fast std_parse).
  Local Notation next_datum := (next_datum ro alpha fast std_parse).
  Local Notation parse_list_meta := (parse_list_meta ro alpha fast std_parse).
  Local Notation parse_vector_meta := (parse_vector_meta ro alpha fast std_parse).

  Theorem pwalk_values fuel :
    PJ _ (next_value fuel) /\ (forall t acc, PJ _ (parse_list fuel t acc)) /\ (forall t acc, PJ _ (parse_vector fuel t acc)).
  Proof.
    induction fuel as [|f (IHv & IHl & IHvec)]; [repeat split; intros; apply PJ_fuel|].
    split; [|split].
    - (* cbn leaves the recursive calls as the whole mutual fix; folded back, the goals stay small *)
      cbn [Parser.next_value]. fold next_value parse_list parse_vector. apply PJ_bind_ws; [apply PJ_pret|]. intros b. apply PJat_bind_token. intros tok.
      destruct tok; try apply PJ_pret.
      + apply PJ_nest_seq; [apply IHl|intros l; apply PJ_pret].
      + apply PJ_nest_quote; [exact IHv|]. intros o. destruct o; [apply PJ_pret|apply PJ_err].
      + apply PJ_nest_seq; [apply IHvec|intros l; apply PJ_pret].
      + apply PJ_bind; [apply PJ_byte_list|intros; apply PJ_pret].
    - intros t acc. cbn [Parser.parse_list]. fold next_value parse_list parse_vector. apply PJ_bind_ws; [apply PJ_err|]. intros c.
      destruct (is_closer c). { apply PJat_weaken. destruct (negb (c =? t)); [apply PJ_err|apply PJ_pret]. }
      destruct (c =? 46).
      + apply PJat_bind_eat_peek. intros nx. destruct (lone_dot nx).
        * destruct acc as [|a0 acc'].
          -- apply PJ_bind; [apply PJ_peek|]. intros o3. destruct o3; apply PJ_err.
          -- apply PJ_bind; [exact IHv|]. intros ov. destruct ov as [cdr|]; [|apply PJ_err].
             apply PJ_bind; [apply PJ_ws|]. intros o2.
             destruct o2 as [c2|]; [destruct (c2 =? t); [apply PJ_pret|apply PJ_err]|apply PJ_err].
        * apply PJ_bind; [apply PJ_symbol_suffix|]. intros name. apply IHl.
      + apply PJat_weaken. apply PJ_bind; [exact IHv|]. intros ov. destruct ov; [apply IHl|apply PJ_err].
    - intros t acc. cbn [Parser.parse_vector]. fold next_value parse_list parse_vector. apply PJ_bind_ws; [apply PJ_err|]. intros c.
      destruct (is_closer c). { apply PJat_weaken. destruct (negb (c =? t)); [apply PJ_err|apply PJ_pret]. }
      apply PJat_weaken. apply PJ_bind; [exact IHv|]. intros ov. destruct ov; [apply IHvec|apply PJ_err].
  Qed.

  Theorem pwalk_datums fuel :
    PJ _ (next_datum fuel) /\ (forall t acc, PJ _ (parse_list_meta fuel t acc)) /\ (forall t acc, PJ _ (parse_vector_meta fuel t acc)).
  Proof.
    induction fuel as [|f (IHv & IHl & IHvec)]; [repeat split; intros; apply PJ_fuel|].
    split; [|split].
    - cbn [Parser.next_datum]. fold next_datum parse_list_meta parse_vector_meta. apply PJ_bind_ws; [apply PJ_pret|]. intros b.
      apply PJat_bind_position. intros start. apply PJat_bind_token. intros tok. cbv zeta.
      destruct tok; try (apply PJ_bind_position; intros; apply PJ_pret).
      + apply PJ_nest_seq; [apply IHl|]. intros l. apply PJ_bind_position. intros; apply PJ_pret.
      + apply PJ_bind_position. intros token_end.
        apply PJ_nest_quote; [exact IHv|]. intros o. destruct o; [apply PJ_pret|apply PJ_err].
      + apply PJ_nest_seq; [apply IHvec|]. intros l. apply PJ_bind_position. intros; apply PJ_pret.
      + apply PJ_bind; [apply PJ_byte_list|]. intros. apply PJ_bind_position. intros; apply PJ_pret.
    - intros t acc. cbn [Parser.parse_list_meta]. fold next_datum parse_list_meta parse_vector_meta. apply PJ_bind_ws; [apply PJ_err|]. intros c.
      destruct (is_closer c). { apply PJat_weaken. destruct (negb (c =? t)); [apply PJ_err|apply PJ_pret]. }
      destruct (c =? 46).
      + apply PJat_bind_position. intros start. apply PJat_bind_eat_peek. intros nx. destruct (lone_dot nx).
        * destruct acc as [|a0 acc'].
          -- apply PJ_bind; [apply PJ_peek|]. intros o3. destruct o3; apply PJ_err.
          -- apply PJ_bind; [exact IHv|]. intros ov. destruct ov as [cdr|]; [|apply PJ_err].
             apply PJ_bind; [apply PJ_ws|]. intros o2.
             destruct o2 as [c2|]; [destruct (c2 =? t); [apply PJ_pret|apply PJ_err]|apply PJ_err].
        * apply PJ_bind; [apply PJ_symbol_suffix|]. intros name. apply PJ_bind_position. intros e. apply IHl.
      + apply PJat_weaken. apply PJ_bind; [exact IHv|]. intros ov. destruct ov; [apply IHl|apply PJ_err].
    - intros t acc. cbn [Parser.parse_vector_meta]. fold next_datum parse_list_meta parse_vector_meta. apply PJ_bind_ws; [apply PJ_err|]. intros c.
      destruct (is_closer c). { apply PJat_weaken. destruct (negb (c =? t)); [apply PJ_err|apply PJ_pret]. }
      apply PJat_weaken. apply PJ_bind; [exact IHv|]. intros ov. destruct ov; [apply IHvec|apply PJ_err].
  Qed.

  Lemma pwalk_expect_value fuel : PJ _ (expect_value ro alpha fast std_parse fuel).
  Proof. unfold expect_value. apply PJ_bind; [apply pwalk_values|]. intros o. destruct o; [apply PJ_pret|apply PJ_err]. Qed.
  Lemma pwalk_expect_datum fuel : PJ _ (expect_datum ro alpha fast std_parse fuel).
  Proof. unfold expect_datum. apply PJ_bind; [apply pwalk_datums|]. intros o. destruct o; [apply PJ_pret|apply PJ_err]. Qed.
End PWalk.

(* The same rules for a parser-level judgement that ignores the pending byte
   and is closed under sequencing and lifting from a reader-level judgement J. *)
Section PlainP.
  Variable J : forall A, M A -> Prop.
  Variable PJ : forall A, PM A -> Prop.
  Hypothesis PJ_bind : forall A B (m : PM A) (f : A -> PM B), PJ A m -> (forall a, PJ B (f a)) -> PJ B (pbind m f).
  Hypothesis PJ_liftR : forall A (m : M A), J A m -> PJ A (liftR m).
  Lemma plainp_bind_lift {A B} (m : M A) (k : A -> PM B) : J A m -> (forall a, PJ B (k a)) -> PJ B (pbind (liftR m) k).
  Proof. intros Hm Hk. apply PJ_bind; [apply PJ_liftR; exact Hm|exact Hk]. Qed.
  Lemma plainp_bind_opt {A} (m : M (option N)) (k : option N -> PM A) :
    J _ m -> PJ A (k None) -> (forall b, PJ A (k (Some b))) -> PJ A (pbind (liftR m) k).
  Proof. intros Hm Hn Hs. apply plainp_bind_lift; [exact Hm|]. intros [b|]; [apply Hs|exact Hn]. Qed.
End PlainP.

(* [plain_pwalk lem J PJ pret fuel bind liftR enter nest_seq nest_quote] does the
   same for a lemma of Section PWalk at a parser-level judgement PJ that
   ignores the pending byte, from PJ's rules: pret, the fuel error, pbind,
   [liftR : J m -> PJ (liftR m)], enter_nesting, and the two cleanup blocks in
   the form [PJ body -> J endm -> (forall a, PJ (k a)) -> PJ (attempt body; ..)].
   What is left to the caller is J of the reader-level steps of the parser:
   peek_error, peek, eat_char ;;; peek, position, parse_whitespace, parse_token,
   parse_symbol_suffix, parse_byte_list, end_seq. *)
Ltac plain_pwalk lem J PJ pret pfuel pbnd plift enter nseq nquote :=
  apply (lem _ _ _ _ PJ (fun _ : N => PJ));
  first [ exact (fun (_ : N) A (m : PM A) (H : PJ A m) => H) | exact pret | exact pfuel | exact pbnd
        | refine (fun A c => plift _ _ _)
        | refine (fun A fuel k => plainp_bind_opt J PJ pbnd plift _ k _)
        | refine (fun (b : N) A fuel k => plainp_bind_lift J PJ pbnd plift _ k _)
        | refine (fun (_ : N) A k => plainp_bind_lift J PJ pbnd plift _ k _)
        | refine (fun A k => plainp_bind_lift J PJ pbnd plift _ k _)
        | refine (plift _ _ _) | refine (fun fuel => plift _ _ _) | refine (fun fuel x => plift _ _ _)
        | exact (fun A B body k Hb Hk => pbnd _ _ _ _ enter (fun _ => nquote A B body k Hb Hk))
        | refine (fun A B body fuel close k Hb Hk => pbnd _ _ _ _ enter (fun _ => nseq A B body (end_seq fuel close) k Hb _ Hk)) ].

Section RelM.
  (* reader before, the error if any, reader after *)
  Variable R0 : reader -> option perr -> reader -> Prop.
  Definition R {A} (r : reader) (x : res A) (r' : reader) : Prop := R0 r (erase x) r'.

  Definition sat {A} (m : M A) : Prop := forall r, R r (fst (m r)) (snd (m r)).

  Hypothesis R0_ret : forall r, R0 r None r.
  Hypothesis R0_seq : forall r r1 x r2, R0 r None r1 -> R0 r1 x r2 -> R0 r x r2.
  Hypothesis R0_fuel : forall r, R0 r (Some EFuel) r.

  Hypothesis sat_peek : sat peek.
  Hypothesis sat_next : sat next_char.
  Hypothesis sat_eat : sat eat_char.
  Hypothesis sat_error : forall A c, sat (@error A c).
  Hypothesis sat_peek_error : forall A c, sat (@peek_error A c).
  Hypothesis sat_error_consume : forall A c, sat (@error_consume A c).
  Hypothesis sat_take_run : sat take_run.
  Hypothesis sat_take_symbol : sat take_symbol_run.

  Lemma sat_ret {A} (a : A) : sat (ret a).
  Proof. intros r. apply R0_ret. Qed.

  Lemma sat_bind {A B} (m : M A) (f : A -> M B) : sat m -> (forall a, sat (f a)) -> sat (bind m f).
  Proof.
    intros Hm Hf r. unfold bind. specialize (Hm r). destruct (m r) as [[a|e] r1]; cbn [fst snd] in *.
    - eapply R0_seq; [exact Hm|apply Hf].
    - exact Hm.
  Qed.

  Lemma sat_out_of_fuel {A} : sat (@out_of_fuel A).
  Proof. intros r. apply R0_fuel. Qed.

  Lemma sat_ext {A} (m m' : M A) : (forall r, m r = m' r) -> sat m' -> sat m.
  Proof. intros E H r. rewrite E. apply H. Qed.

  Lemma sat_by_rk {A} (m : M A) (f : src_kind -> M A) :
    (forall r, m r = f (rk r) r) -> (forall k, sat (f k)) -> sat m.
  Proof. intros E H r. rewrite E. apply (H (rk r)). Qed.

  Ltac sat_walk lem :=
    plain_walk (@sat) lem (@sat_ext) (@sat_ret) (@sat_out_of_fuel) sat_error sat_peek_error (@sat_bind)
               sat_peek sat_next sat_eat sat_error_consume.
  Lemma sat_peek_or_null : sat peek_or_null.
  Proof. sat_walk walk_peek_or_null. Qed.
  Lemma sat_next_or_eof : sat next_or_eof.
  Proof. sat_walk walk_next_or_eof. Qed.
  Lemma sat_next_or_eof_char : sat next_or_eof_char.
  Proof. sat_walk walk_next_or_eof_char. Qed.
  Lemma sat_as_str (b : bytes) : sat (Scan.as_str b).
  Proof. sat_walk walk_as_str. Qed.
  Lemma sat_finish_str b : sat (finish_str b).
  Proof.
    apply (sat_by_rk _ (fun k => match k with SrcStr => ret b | _ => Scan.as_str b end));
      [intros r; unfold finish_str; destruct (rk r); reflexivity|].
    intros k; destruct k; first [apply sat_ret | apply sat_as_str].
  Qed.
  Lemma sat_scan_symbol_io fuel : forall scratch, sat (scan_symbol_io fuel scratch).
  Proof. sat_walk walk_scan_symbol_io. Qed.
  Lemma sat_scan_symbol_slice scratch : sat (scan_symbol_slice scratch).
  Proof. sat_walk walk_scan_symbol_slice; exact sat_take_symbol. Qed.
  Lemma sat_parse_symbol_rd fuel scratch : sat (parse_symbol_rd fuel scratch).
  Proof.
    apply (sat_by_rk _ (fun k => match k with
                                 | SrcIo => b <- scan_symbol_io fuel scratch ;; Scan.as_str b
                                 | _ => b <- scan_symbol_slice scratch ;; finish_str b
                                 end)); [intros r; unfold parse_symbol_rd; destruct (rk r); reflexivity|].
    intros k; destruct k; apply sat_bind; auto using sat_scan_symbol_io, sat_scan_symbol_slice, sat_as_str, sat_finish_str.
  Qed.
  Lemma sat_hex_escape_loop fuel : forall n, sat (hex_escape_loop fuel n).
  Proof. sat_walk walk_hex_escape_loop. Qed.
  Lemma sat_parse_r6rs_escape fuel : sat (parse_r6rs_escape fuel).
  Proof using R0_ret R0_seq R0_fuel sat_next sat_error. sat_walk walk_parse_r6rs_escape. Qed.
  Lemma sat_r6rs_str_io fuel : forall scratch, sat (r6rs_str_io fuel scratch).
  Proof. sat_walk walk_r6rs_str_io. Qed.
  Lemma sat_r6rs_str_slice fuel : forall scratch, sat (r6rs_str_slice fuel scratch).
  Proof. sat_walk walk_r6rs_str_slice; exact sat_take_run. Qed.
  Lemma sat_parse_r6rs_str_rd fuel : sat (parse_r6rs_str_rd fuel).
  Proof.
    apply (sat_by_rk _ (fun k => match k with
                                 | SrcIo => b <- r6rs_str_io fuel [] ;; Scan.as_str b
                                 | _ => b <- r6rs_str_slice fuel [] ;; finish_str b
                                 end)); [intros r; unfold parse_r6rs_str_rd; destruct (rk r); reflexivity|].
    intros k; destruct k; apply sat_bind; auto using sat_r6rs_str_io, sat_r6rs_str_slice, sat_as_str, sat_finish_str.
  Qed.
  Lemma sat_elisp_hex_loop fuel : forall n, sat (elisp_hex_loop fuel n).
  Proof. sat_walk walk_elisp_hex_loop. Qed.
  Lemma sat_decode_elisp_uni_escape k : forall n, sat (decode_elisp_uni_escape k n).
  Proof. sat_walk walk_decode_elisp_uni_escape. Qed.
  Lemma sat_elisp_octal_loop fuel : forall n, sat (elisp_octal_loop fuel n).
  Proof. sat_walk walk_elisp_octal_loop. Qed.
  Lemma sat_elisp_char_escape_of n : sat (elisp_char_escape_of n).
  Proof. sat_walk walk_elisp_char_escape_of. Qed.
  Lemma sat_elisp_uni_escape_of n : sat (elisp_uni_escape_of n).
  Proof. sat_walk walk_elisp_uni_escape_of. Qed.
  Lemma sat_parse_elisp_escape fuel : sat (parse_elisp_escape fuel).
  Proof. sat_walk walk_parse_elisp_escape. Qed.
  Lemma sat_elisp_finish fl scratch : sat (elisp_finish fl scratch).
  Proof. sat_walk walk_elisp_finish. Qed.
  Lemma sat_elisp_str_io fuel : forall fl scratch, sat (elisp_str_io fuel fl scratch).
  Proof. sat_walk walk_elisp_str_io. Qed.
  Lemma sat_elisp_str_slice fuel : forall fl scratch, sat (elisp_str_slice fuel fl scratch).
  Proof. sat_walk walk_elisp_str_slice; exact sat_take_run. Qed.
  Lemma sat_parse_elisp_str_rd fuel : sat (parse_elisp_str_rd fuel).
  Proof.
    apply (sat_by_rk _ (fun k => match k with
                                 | SrcIo => elisp_str_io fuel {| seen_ub := false; seen_mb := false; seen_na := false |} []
                                 | _ => elisp_str_slice fuel {| seen_ub := false; seen_mb := false; seen_na := false |} []
                                 end)); [intros r; unfold parse_elisp_str_rd; cbv zeta; destruct (rk r); reflexivity|].
    intros k; destruct k; first [apply sat_elisp_str_io | apply sat_elisp_str_slice].
  Qed.
  Lemma sat_take_bytes k : forall acc, sat (take_bytes k acc).
  Proof. sat_walk walk_take_bytes. Qed.
  Lemma sat_decode_utf8_sequence_b c : sat (decode_utf8_sequence_b c).
  Proof. sat_walk walk_decode_utf8_sequence_b. Qed.
  Lemma sat_decode_utf8_sequence c : sat (decode_utf8_sequence c).
  Proof. sat_walk walk_decode_utf8_sequence. Qed.
  Lemma sat_r6rs_char_hex_loop fuel : forall n first, sat (r6rs_char_hex_loop fuel n first).
  Proof. sat_walk walk_r6rs_char_hex_loop. Qed.
  Lemma sat_char_name_loop fuel : forall scratch, sat (char_name_loop fuel scratch).
  Proof. sat_walk walk_char_name_loop. Qed.
  Lemma sat_open_ended_char n : sat (open_ended_char n).
  Proof using R0_ret R0_seq sat_peek sat_error. sat_walk walk_open_ended_char. Qed.
  Lemma sat_parse_r6rs_char fuel : sat (parse_r6rs_char fuel).
  Proof. sat_walk walk_parse_r6rs_char. Qed.
  Lemma sat_as_char (n : N) : sat (Scan.as_char n).
  Proof using R0_ret sat_error. sat_walk walk_as_char. Qed.
  Lemma sat_decode_elisp_char_escape fuel : sat (decode_elisp_char_escape fuel).
  Proof using R0_ret R0_seq R0_fuel sat_peek sat_next sat_eat sat_error. sat_walk walk_decode_elisp_char_escape. Qed.
  Lemma sat_parse_elisp_char fuel : sat (parse_elisp_char fuel).
  Proof. sat_walk walk_parse_elisp_char. Qed.

  Variable fast : bool.
  Variable std_parse : N -> Z -> f64.
  Lemma sat_fast_loop fuel : forall f e, sat (f64_from_parts_fast_loop fuel f e).
  Proof. sat_walk walk_fast_loop. Qed.
  Lemma sat_f64_from_parts pos sig e : sat (f64_from_parts fast std_parse pos sig e).
  Proof using R0_ret R0_seq R0_fuel sat_error. sat_walk walk_f64_from_parts. Qed.
  Lemma sat_skip_digits fuel : sat (skip_digits fuel).
  Proof using R0_ret R0_seq R0_fuel sat_peek sat_eat. sat_walk walk_skip_digits. Qed.
  Lemma sat_parse_exponent_overflow fuel p s pe : sat (parse_exponent_overflow fuel p s pe).
  Proof using R0_ret R0_seq R0_fuel sat_peek sat_eat sat_error. sat_walk walk_parse_exponent_overflow. Qed.
  Lemma sat_exponent_digits fuel : forall p s pe se e, sat (exponent_digits fast std_parse fuel p s pe se e).
  Proof. sat_walk walk_exponent_digits. Qed.
  Lemma sat_parse_exponent fuel p s se : sat (parse_exponent fast std_parse fuel p s se).
  Proof. sat_walk walk_parse_exponent. Qed.
  Lemma sat_decimal_digits fuel : forall s e o, sat (decimal_digits fuel s e o).
  Proof. sat_walk walk_decimal_digits. Qed.
  Lemma sat_parse_decimal fuel p s e : sat (parse_decimal fast std_parse fuel p s e).
  Proof. sat_walk walk_parse_decimal. Qed.
  Lemma sat_parse_long_integer fuel : forall radix p s e, sat (parse_long_integer fast std_parse fuel radix p s e).
  Proof. sat_walk walk_parse_long_integer. Qed.
  Lemma sat_parse_num_tail fuel radix p s : sat (parse_num_tail fast std_parse fuel radix p s).
  Proof using R0_ret R0_seq R0_fuel sat_peek sat_next sat_eat sat_error sat_peek_error. sat_walk walk_parse_num_tail. Qed.
  Lemma sat_num_literal_loop fuel : forall radix p s, sat (num_literal_loop fast std_parse fuel radix p s).
  Proof. sat_walk walk_num_literal_loop. Qed.
  Lemma sat_parse_num_literal fuel radix p : sat (parse_num_literal fast std_parse fuel radix p).
  Proof. sat_walk walk_parse_num_literal. Qed.

  Variable ro : parse_options.
  Variable alpha : N -> bool.
  Lemma sat_skip_comment fuel : sat (skip_comment fuel).
  Proof. sat_walk walk_skip_comment. Qed.
  Lemma sat_parse_whitespace fuel : sat (parse_whitespace fuel).
  Proof. sat_walk walk_parse_whitespace. Qed.
  Lemma sat_parse_symbol fuel : sat (parse_symbol fuel).
  Proof. apply sat_parse_symbol_rd. Qed.
  Lemma sat_parse_symbol_suffix fuel p : sat (parse_symbol_suffix fuel p).
  Proof. apply sat_parse_symbol_rd. Qed.
  Lemma sat_expect_ident ident : sat (expect_ident ident).
  Proof. sat_walk walk_expect_ident. Qed.
  Lemma sat_parse_num_token fuel radix p : sat (parse_num_token fast std_parse fuel radix p).
  Proof. sat_walk walk_parse_num_token. Qed.
  Lemma sat_parse_radix_literal fuel radix : sat (parse_radix_literal fast std_parse fuel radix).
  Proof. sat_walk walk_parse_radix_literal. Qed.
  Lemma sat_parse_number fuel : sat (parse_number fast std_parse fuel).
  Proof. sat_walk walk_parse_number. Qed.
  Lemma sat_parse_token fuel b : sat (parse_token ro alpha fast std_parse fuel b).
  Proof. sat_walk walk_parse_token; auto using sat_parse_symbol_rd, sat_parse_r6rs_str_rd, sat_parse_elisp_str_rd. Qed.
  Lemma sat_end_seq fuel close : sat (end_seq fuel close).
  Proof. sat_walk walk_end_seq. Qed.
  Lemma sat_expect_end fuel : sat (expect_end fuel).
  Proof. sat_walk walk_expect_end. Qed.
  Lemma sat_byte_list_loop fuel : forall close acc, sat (byte_list_loop fast std_parse fuel close acc).
  Proof. sat_walk walk_byte_list_loop. Qed.
  Lemma sat_parse_byte_list fuel close : sat (parse_byte_list fast std_parse fuel close).
  Proof. sat_walk walk_parse_byte_list. Qed.
  Lemma sat_position : sat position.
  Proof. intros r. apply R0_ret. Qed.

  Create HintDb sat.
  Hint Resolve sat_peek_or_null sat_parse_symbol sat_parse_symbol_suffix sat_expect_ident sat_parse_radix_literal
    sat_parse_r6rs_char sat_parse_num_token sat_num_literal_loop sat_parse_r6rs_str_rd sat_parse_elisp_str_rd sat_parse_elisp_char
    sat_decode_utf8_sequence_b sat_parse_whitespace : sat.
  (* for the pieces of parse_token that follow the step that consumes *)
  Ltac sat_auto :=
    repeat first
      [ solve [auto with sat] | apply sat_ret | apply sat_peek | apply sat_next | apply sat_eat
      | apply sat_error | apply sat_peek_error | apply sat_bind; [|intros ?]
      | match goal with
        | |- sat (match ?x with _ => _ end) => destruct x
        | |- sat (if ?x then _ else _) => destruct x
        end ].

  (* progress: a successful token consumes the byte it was dispatched on.
     lt0 r r' says that r' is strictly further in the input than r; it is kept
     by whatever R0-related step follows. *)
  Variable lt0 : reader -> reader -> Prop.
  Definition strict {A} (b : N) (m : M A) : Prop :=
    forall r, at_byte b r -> match m r with (Ok _, r') => lt0 r r' | (Err _, _) => True end.
  Hypothesis lt0_then : forall r r1 r2, lt0 r r1 -> R0 r1 None r2 -> lt0 r r2.
  Hypothesis strict_eat : forall b, strict b eat_char.
  Hypothesis strict_next : forall b, strict b next_char.
  Hypothesis strict_symbol_rd : forall b fuel scratch, is_symbol_terminator b = false -> strict b (parse_symbol_rd fuel scratch).

  Lemma strict_bind_l {A B} b (m : M A) (f : A -> M B) : strict b m -> (forall a, sat (f a)) -> strict b (bind m f).
  Proof.
    intros Hm Hf r Hr. unfold bind. specialize (Hm r Hr). destruct (m r) as [[a|e] r1]; [|exact I].
    specialize (Hf a r1). unfold R in Hf. destruct (f a r1) as [[c|e] r2]; cbn [fst snd erase] in Hf; [|exact I].
    eapply lt0_then; eauto.
  Qed.
  Lemma peek_or_null_at b r : at_byte b r -> peek_or_null r = (Ok b, r).
  Proof. intros [Hp [l Hl]]. unfold peek_or_null, bind, peek, r_peek, ret. rewrite Hp, Hl. reflexivity. Qed.
  Lemma strict_after_peek0 {A} b (f : N -> M A) : strict b (f b) -> strict b (bind peek_or_null f).
  Proof. intros H r Hr. unfold bind. rewrite (peek_or_null_at b r Hr). apply H. exact Hr. Qed.

  Lemma strict_parse_symbol b fuel : is_symbol_terminator b = false -> strict b (parse_symbol fuel).
  Proof. intros H. unfold parse_symbol. apply strict_symbol_rd. exact H. Qed.
  Lemma strict_parse_num_literal b fuel radix p : strict b (parse_num_literal fast std_parse fuel radix p).
  Proof. unfold parse_num_literal. apply strict_bind_l; [apply strict_next|intros ?; sat_auto]. Qed.
  Lemma strict_parse_num_token b fuel radix p : strict b (parse_num_token fast std_parse fuel radix p).
  Proof. unfold parse_num_token. apply strict_bind_l; [apply strict_parse_num_literal|intros ?; sat_auto]. Qed.

  Lemma digit_not_terminator b : is_digit b = true -> is_symbol_terminator b = false.
  Proof.
    unfold is_digit, in_range. intros H. apply andb_prop in H. destruct H as [H1 H2].
    apply N.leb_le in H1. apply N.leb_le in H2. unfold is_symbol_terminator, memb. cbn [existsb].
    repeat match goal with |- (?x =? ?y) || _ = false => replace (x =? y) with false by (symmetry; apply N.eqb_neq; intros ->; cbv in H1, H2; first [apply H1; reflexivity | apply H2; reflexivity]); cbn [orb] end.
    reflexivity.
  Qed.

  Theorem strict_parse_token fuel b : strict b (parse_token ro alpha fast std_parse fuel b).
  Proof.
    unfold parse_token. fold (@error_consume token ExpectedSomeValue).
    destruct (b =? 35). { apply strict_bind_l; [apply strict_eat|intros ?; sat_auto]. }
    destruct ((b =? 45) || (b =? 43)). { apply strict_bind_l; [apply strict_eat|intros ?; sat_auto]. }
    destruct (is_digit b) eqn:Ed.
    { destruct (ro_digit ro).
      - apply strict_bind_l; [apply strict_parse_symbol; apply digit_not_terminator; exact Ed|intros ?; sat_auto].
      - apply strict_bind_l; [apply strict_parse_num_token|intros ?; sat_auto]. }
    destruct (b =? 34). { apply strict_bind_l; [apply strict_eat|intros ?; sat_auto]. }
    destruct (b =? 40). { apply strict_bind_l; [apply strict_eat|intros ?; sat_auto]. }
    destruct (b =? 91). { apply strict_bind_l; [apply strict_eat|intros ?; sat_auto]. }
    destruct (b =? 58) eqn:E58.
    { destruct (ro_kw_prefix ro).
      - apply strict_bind_l; [apply strict_eat|intros ?; sat_auto].
      - apply strict_bind_l; [apply strict_parse_symbol; apply N.eqb_eq in E58; subst b; reflexivity|intros ?; sat_auto]. }
    destruct (is_ascii_alpha b) eqn:Ea.
    { apply strict_bind_l; [apply strict_parse_symbol|intros ?; sat_auto].
      unfold is_ascii_alpha, is_ascii_lower, is_ascii_upper, in_range in Ea.
      unfold is_symbol_terminator, memb. cbn [existsb].
      destruct (b =? 32) eqn:E1; [apply N.eqb_eq in E1; subst b; discriminate Ea|].
      destruct (b =? 10) eqn:E2; [apply N.eqb_eq in E2; subst b; discriminate Ea|].
      destruct (b =? 9) eqn:E3; [apply N.eqb_eq in E3; subst b; discriminate Ea|].
      destruct (b =? 13) eqn:E4; [apply N.eqb_eq in E4; subst b; discriminate Ea|].
      destruct (b =? 12) eqn:E5; [apply N.eqb_eq in E5; subst b; discriminate Ea|].
      destruct (b =? 41) eqn:E6; [apply N.eqb_eq in E6; subst b; discriminate Ea|].
      destruct (b =? 93) eqn:E7; [apply N.eqb_eq in E7; subst b; discriminate Ea|].
      destruct (b =? 40) eqn:E8; [apply N.eqb_eq in E8; subst b; discriminate Ea|].
      destruct (b =? 91) eqn:E9; [apply N.eqb_eq in E9; subst b; discriminate Ea|].
      destruct (b =? 59) eqn:E10; [apply N.eqb_eq in E10; subst b; discriminate Ea|]. reflexivity. }
    destruct ((b =? 63) && _). { apply strict_bind_l; [apply strict_eat|intros ?; sat_auto]. }
    destruct (b =? 39). { apply strict_bind_l; [apply strict_eat|intros ?; sat_auto]. }
    destruct (b =? 96). { apply strict_bind_l; [apply strict_eat|intros ?; sat_auto]. }
    destruct (b =? 44). { apply strict_bind_l; [apply strict_eat|intros ?; sat_auto]. }
    destruct (127 <? b). { apply strict_bind_l; [apply strict_eat|intros ?; sat_auto]. }
    destruct (memb b SYMBOL_EXTENDED) eqn:Ex.
    { apply strict_bind_l; [apply strict_parse_symbol|intros ?; sat_auto].
      unfold SYMBOL_EXTENDED, memb in Ex. cbn [s2b existsb] in Ex.
      repeat (apply orb_true_iff in Ex; destruct Ex as [Ex|Ex]; [apply N.eqb_eq in Ex; subst b; reflexivity|]). discriminate Ex. }
    intros r _. unfold error_consume, peek_error. destruct (r_peek_position r). exact I.
  Qed.

  (* once an error has been raised, what still runs before it is reported
     (inc_depth, end_seq) keeps the relation, whichever error is reported *)
  Hypothesis R0_rec1 : forall r e r1 x r2, R0 r (Some e) r1 -> R0 r1 x r2 -> R0 r (Some e) r2.
  Hypothesis R0_rec2 : forall r e r1 e' r2, R0 r (Some e) r1 -> R0 r1 (Some e') r2 -> R0 r (Some e') r2.

  (* a panic is no result R0 speaks about, like the fuel error: it counts as one *)
  Definition perase {A} (p : pres A) : option perr :=
    match p with POk _ => None | PErr (XErr e) => Some e | PErr (XPanic _) => Some EFuel end.
  Definition psat {A} (m : PM A) : Prop := forall s, R0 (rd s) (perase (fst (m s))) (rd (snd (m s))).

  Lemma psat_pret {A} (a : A) : psat (pret a).
  Proof. intros s. apply R0_ret. Qed.
  Lemma psat_panic {A} k : psat (@panic A k).
  Proof. intros s. apply R0_fuel. Qed.
  Lemma psat_fuel {A} : psat (@pfail A (XErr EFuel)).
  Proof. intros s. apply R0_fuel. Qed.
  Lemma psat_liftR {A} (m : M A) : sat m -> psat (liftR m).
  Proof.
    intros H s. unfold liftR. specialize (H (rd s)). unfold R in H.
    destruct (m (rd s)) as [[a|e] r']; cbn [fst snd rd perase erase] in *; exact H.
  Qed.
  Lemma psat_bind {A B} (m : PM A) (f : A -> PM B) : psat m -> (forall a, psat (f a)) -> psat (pbind m f).
  Proof.
    intros Hm Hf s. unfold pbind. specialize (Hm s). destruct (m s) as [[a|e] s1]; cbn [fst snd] in *.
    - eapply R0_seq; [exact Hm|apply Hf].
    - exact Hm.
  Qed.
  Lemma psat_get_depth : psat get_depth.
  Proof. intros s. apply R0_ret. Qed.
  Lemma psat_set_depth d : psat (set_depth d).
  Proof. intros s. apply R0_ret. Qed.

  Lemma psat_dec_depth : psat dec_depth.
  Proof. unfold dec_depth. apply psat_bind; [apply psat_get_depth|]. intros d. destruct (d =? 0); [apply psat_panic|apply psat_set_depth]. Qed.
  Lemma psat_inc_depth : psat inc_depth.
  Proof. unfold inc_depth. apply psat_bind; [apply psat_get_depth|]. intros d. destruct (255 <=? d); [apply psat_panic|apply psat_set_depth]. Qed.
  Lemma psat_enter_nesting : psat enter_nesting.
  Proof.
    unfold enter_nesting. apply psat_bind; [apply psat_dec_depth|]. intros _. apply psat_bind; [apply psat_get_depth|]. intros d.
    destruct (d =? 0); [|apply psat_pret]. apply psat_bind; [apply psat_inc_depth|]. intros _. apply psat_liftR, sat_peek_error.
  Qed.

  (* what runs after the body of a nested form failed with e0: inc_depth, then [after] *)
  Lemma psat_after_error {B} (after : PM B) e0 s1 s2 :
    R0 (rd s1) (Some e0) (rd s2) ->
    (forall s3, R0 (rd s1) (Some e0) (rd s3) ->
                R0 (rd s1) (perase (fst (after s3))) (rd (snd (after s3)))) ->
    R0 (rd s1) (perase (fst (pbind inc_depth (fun _ => after) s2))) (rd (snd (pbind inc_depth (fun _ => after) s2))).
  Proof.
    intros H0 Hafter. rewrite pbind_unfold. pose proof (psat_inc_depth s2) as Hi.
    destruct (inc_depth s2) as [[u|[e1|pk]] s3]; cbn [fst snd perase] in Hi |- *.
    - apply Hafter. eapply R0_rec1; [exact H0|exact Hi].
    - eapply R0_rec2; [exact H0|exact Hi].
    - eapply R0_rec2; [exact H0|exact Hi].
  Qed.

  Lemma psat_nest_seq {A B} (body : PM A) (endm : M unit) (k : A -> PM B) :
    psat body -> sat endm -> (forall a, psat (k a)) ->
    psat (pbind (attempt body) (fun r =>
          pbind inc_depth (fun _ =>
          pbind (attempt (liftR endm)) (fun e =>
          pbind (both r e) k)))).
  Proof.
    intros Hbody Hend Hk s1. pose proof (Hbody s1) as Hb.
    rewrite pbind_unfold, attempt_unfold.
    assert (Herr : forall e0 s2, R0 (rd s1) (Some e0) (rd s2) ->
              let m := pbind inc_depth (fun _ => pbind (attempt (liftR endm)) (fun e1 => pbind (both (Err e0) e1) k)) in
              R0 (rd s1) (perase (fst (m s2))) (rd (snd (m s2)))).
    { intros e0 s2 H0 m. unfold m. apply (psat_after_error _ e0 s1 s2 H0). intros s3 Hmid.
      rewrite pbind_unfold, attempt_unfold. pose proof (psat_liftR endm Hend s3) as He.
      destruct (liftR endm s3) as [[u'|[e1|pk]] s4]; cbn [fst snd perase] in He |- *.
      - rewrite pbind_unfold. cbn [both pfail fst snd perase]. eapply R0_rec1; [exact Hmid|exact He].
      - destruct e1; rewrite ?pbind_unfold; cbn [both pfail fst snd perase];
          first [eapply R0_rec1; [exact Hmid|exact He] | eapply R0_rec2; [exact Hmid|exact He]].
      - eapply R0_rec2; [exact Hmid|exact He]. }
    destruct (body s1) as [[a|[e|pk]] s2]; cbn [fst snd perase] in Hb.
    - (* body succeeded *)
      eapply R0_seq; [exact Hb|].
      apply (psat_bind inc_depth _ psat_inc_depth). intros _ s3.
      pose proof (psat_liftR endm Hend s3) as He.
      rewrite pbind_unfold, attempt_unfold.
      destruct (liftR endm s3) as [[u|[e|pk]] s4]; cbn [fst snd perase] in He |- *.
      + eapply R0_seq; [exact He|]. cbn [both]. apply (psat_bind (pret a) k (psat_pret a) Hk).
      + destruct e; rewrite ?pbind_unfold; cbn [both pfail fst snd perase]; exact He.
      + exact He.
    - destruct e as [c l cl|io|]; [apply Herr; exact Hb|apply Herr; exact Hb|exact Hb].
    - exact Hb.
  Qed.

  Lemma psat_nest_quote {A B} (body : PM A) (k : A -> PM B) :
    psat body -> (forall a, psat (k a)) ->
    psat (pbind (attempt body) (fun r => pbind inc_depth (fun _ => pbind (lift r) k))).
  Proof.
    intros Hbody Hk s1. pose proof (Hbody s1) as Hb.
    rewrite pbind_unfold, attempt_unfold.
    assert (Herr : forall e0 s2, R0 (rd s1) (Some e0) (rd s2) ->
              let m := pbind inc_depth (fun _ => pbind (lift (Err e0)) k) in
              R0 (rd s1) (perase (fst (m s2))) (rd (snd (m s2)))).
    { intros e0 s2 H0 m. unfold m. apply (psat_after_error _ e0 s1 s2 H0). intros s3 Hmid.
      rewrite pbind_unfold. cbn [lift pfail fst snd perase]. exact Hmid. }
    destruct (body s1) as [[a|[e|pk]] s2]; cbn [fst snd perase] in Hb.
    - eapply R0_seq; [exact Hb|].
      apply (psat_bind inc_depth _ psat_inc_depth). intros _. cbn [lift]. apply (psat_bind (pret a) k (psat_pret a) Hk).
    - destruct e as [c l cl|io|]; [apply Herr; exact Hb|apply Herr; exact Hb|exact Hb].
    - exact Hb.
  Qed.

  Local Notation next_value := (next_value ro alpha fast std_parse).
  Local Notation parse_list := (parse_list ro alpha fast std_parse).
  Local Notation parse_vector := (parse_vector ro alpha fast std_parse).
  Local Notation next_datum := (next_datum ro alpha fast std_parse).
  Local Notation parse_list_meta := (parse_list_meta ro alpha fast std_parse).
  Local Notation parse_vector_meta := (parse_vector_meta ro alpha fast std_parse).

  Ltac psat_walk lem :=
    plain_pwalk lem (@sat) (@psat) (@psat_pret) (@psat_fuel) (@psat_bind) (@psat_liftR) psat_enter_nesting
                (@psat_nest_seq) (@psat_nest_quote);
    auto using sat_peek_error, sat_peek, sat_bind, sat_eat, sat_position, sat_parse_whitespace, sat_parse_token,
      sat_parse_symbol_suffix, sat_parse_byte_list, sat_end_seq.

  Theorem psat_values fuel :
    psat (next_value fuel) /\ (forall t acc, psat (parse_list fuel t acc)) /\ (forall t acc, psat (parse_vector fuel t acc)).
  Proof. psat_walk pwalk_values. Qed.

  Theorem psat_datums fuel :
    psat (next_datum fuel) /\ (forall t acc, psat (parse_list_meta fuel t acc)) /\
    (forall t acc, psat (parse_vector_meta fuel t acc)).
  Proof. psat_walk pwalk_datums. Qed.

  Theorem psat_expect_value fuel : psat (expect_value ro alpha fast std_parse fuel).
  Proof. psat_walk pwalk_expect_value. Qed.
  Theorem psat_expect_datum fuel : psat (expect_datum ro alpha fast std_parse fuel).
  Proof. psat_walk pwalk_expect_datum. Qed.
  Theorem psat_expect_end fuel : psat (expect_end_p fuel).
  Proof. apply psat_liftR, sat_expect_end. Qed.
End RelM.
