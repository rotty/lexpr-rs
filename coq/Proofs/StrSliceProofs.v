(* C06: a &str and the byte slice of the same bytes. StrRead and SliceRead run
   the same code except in one respect: where SliceRead checks that a scanned
   symbol or string is well-formed UTF-8 (as_str), StrRead does not
   (from_utf8_unchecked), relying on its input being a str. So the two can only
   differ where the slice reader rejects ill-formed UTF-8: for ANY bytes, either
   the slice parse ends in InvalidUnicodeCodePoint, or both return exactly the
   same result - value, error, position. (That the rejection cannot happen on
   a well-formed input is shown in ValidTextProofs.) *)
From Coq Require Import SpecFloat.
Require Import Base Value Float PrintOptions ParseOptions Utf8 Reader Scan Num NumberOps Parser.
Require Import RelFramework.
Require EscapeRuns.

Definition srel (r1 r2 : reader) : Prop :=
  rk r1 = SrcStr /\ rk r2 = SrcSlice /\ rline r1 = rline r2 /\ rcol r1 = rcol r2 /\
  rpending r1 = rpending r2 /\ rinput r1 = rinput r2.

Definition esc {A} (x : res A) : Prop :=
  match x with Err EFuel => True | Err (ESyntax InvalidUnicodeCodePoint _ _) => True | _ => False end.

Definition sc {A} (m : M A) (r1 r2 : reader) : Prop :=
  esc (fst (m r2)) \/ (fst (m r1) = fst (m r2) /\ srel (snd (m r1)) (snd (m r2))).
Definition sx {A} (m : M A) : Prop := forall r1 r2, srel r1 r2 -> sc m r1 r2.

(* r1 is r2 with the kind changed: every function that does not look at the kind beyond "is it a stream" commutes *)
Definition as_strk (r : reader) : reader :=
  {| rk := SrcStr; rline := rline r; rcol := rcol r; rpending := rpending r; rinput := rinput r |}.
Lemma srel_eq r1 r2 : srel r1 r2 -> r1 = as_strk r2.
Proof. intros (K1 & K2 & A & B & C & D). destruct r1. cbn in *. subst. reflexivity. Qed.
Lemma srel_as r : rk r = SrcSlice -> srel (as_strk r) r.
Proof. intros K. repeat split; auto. Qed.

Definition alike {A} (m : M A) : Prop :=
  forall r, rk r = SrcSlice -> m (as_strk r) = (fst (m r), as_strk (snd (m r))) /\ rk (snd (m r)) = SrcSlice.
Lemma sx_alike {A} (m : M A) : alike m -> sx m.
Proof.
  intros H r1 r2 Hr. right. pose proof Hr as (K1 & K2 & _). rewrite (srel_eq r1 r2 Hr).
  destruct (H r2 K2) as [E Hk]. rewrite E. cbn [fst snd]. split; [reflexivity|apply srel_as; exact Hk].
Qed.

Lemma alike_ret {A} (a : A) : alike (ret a).
Proof. intros r K. split; [reflexivity|exact K]. Qed.
Lemma alike_fuel {A} : alike (@out_of_fuel A).
Proof. intros r K. split; [reflexivity|exact K]. Qed.
Lemma alike_peek : alike peek.
Proof.
  intros [k ln cl p i] K. cbn in K. subst k. unfold peek, r_peek, as_strk. cbn [rpending rinput rk rline rcol]. destruct p.
  - destruct i as [|[b| |e] l]; cbn [fst snd]; (split; [reflexivity|reflexivity]).
  - destruct (skip_intr i) as [|[b| |e] l]; cbn [fst snd rk rline rcol rpending rinput]; (split; [reflexivity|reflexivity]).
Qed.
Lemma alike_next : alike next_char.
Proof.
  intros [k ln cl p i] K. cbn in K. subst k. unfold next_char, r_next, as_strk. cbn [rpending rinput rk rline rcol].
  destruct (if p then i else skip_intr i) as [|[b| |e] l]; cbn [fst snd rk rline rcol rpending rinput]; try (split; [reflexivity|reflexivity]).
  unfold consume. cbn [rline rcol rk]. destruct (advance ln cl b). cbn [fst snd rk rline rcol rpending rinput]. split; [reflexivity|reflexivity].
Qed.
Lemma discard_alike r : rk r = SrcSlice -> r_discard (as_strk r) = as_strk (r_discard r) /\ rk (r_discard r) = SrcSlice.
Proof.
  destruct r as [k ln cl p i]. cbn [rk]. intros K. subst k. unfold r_discard, as_strk. cbn [rk rinput rline rcol rpending].
  destruct i as [|[b| |e] l]; try (split; reflexivity).
  unfold consume. cbn [rline rcol rk]. destruct (advance ln cl b). cbn [rk rline rcol rpending rinput]. split; reflexivity.
Qed.
Lemma alike_eat : alike eat_char.
Proof. intros r K. unfold eat_char. cbn [fst snd]. destruct (discard_alike r K) as [E Hk]. rewrite E. split; [reflexivity|exact Hk]. Qed.
Lemma alike_error {A} c : alike (@error A c).
Proof. intros r K. unfold error, r_position. cbn [as_strk rline rcol fst snd]. split; [reflexivity|exact K]. Qed.
Lemma peek_position_alike r : rk r = SrcSlice -> r_peek_position (as_strk r) = r_peek_position r.
Proof. intros K. unfold r_peek_position. rewrite K. reflexivity. Qed.
Lemma alike_peek_error {A} c : alike (@peek_error A c).
Proof.
  intros r K. unfold peek_error. rewrite (peek_position_alike r K). destruct (r_peek_position r). cbn [fst snd]. split; [reflexivity|exact K].
Qed.
Lemma alike_error_consume {A} c : alike (@error_consume A c).
Proof.
  intros r K. unfold error_consume, peek_error. rewrite (peek_position_alike r K). destruct (r_peek_position r). cbn [fst snd].
  destruct (discard_alike r K) as [E Hk]. rewrite E. split; [reflexivity|exact Hk].
Qed.
Lemma alike_position : alike position.
Proof. intros r K. unfold position, r_position. cbn [as_strk rline rcol fst snd]. split; [reflexivity|exact K]. Qed.
Lemma advance_over_alike r bs rest : advance_over (as_strk r) bs rest = as_strk (advance_over r bs rest).
Proof. unfold advance_over. cbn [as_strk rline rcol rk]. destruct (fold_left _ bs (rline r, rcol r)). reflexivity. Qed.
Lemma rk_advance_over r bs rest : rk (advance_over r bs rest) = rk r.
Proof. apply advance_over_rk. Qed.
Lemma alike_take_run : alike take_run.
Proof.
  intros [k ln cl p i] K. cbn in K. subst k. unfold take_run, as_strk. cbn [rinput rline rcol rk rpending].
  destruct (span_plain i []) as [run rest]. unfold advance_over. cbn [rline rcol rk].
  destruct (fold_left _ run (ln, cl)) as [l2 c2].
  destruct rest as [|[b| |e] rest']; cbn [fst snd rk rline rcol rpending rinput]; try (split; reflexivity).
  unfold consume. cbn [rline rcol rk]. destruct (advance l2 c2 b). cbn [rk rline rcol rpending rinput]. split; reflexivity.
Qed.
Lemma alike_take_symbol : alike take_symbol_run.
Proof.
  intros [k ln cl p i] K. cbn in K. subst k. unfold take_symbol_run, as_strk. cbn [rinput rline rcol rk rpending].
  destruct (span_symbol i []) as [run rest]. unfold advance_over. cbn [rline rcol rk].
  destruct (fold_left _ run (ln, cl)) as [l2 c2]. cbn [fst snd rk rline rcol rpending rinput]. split; reflexivity.
Qed.

(* sx and, below, psx are the judgements of EscapeRuns at srel, for the errors esc lets through *)
Definition escapes (e : perr) : Prop :=
  match e with EFuel => True | ESyntax InvalidUnicodeCodePoint _ _ => True | _ => False end.
Lemma sx_bind {A B} (m : M A) (f : A -> M B) : sx m -> (forall a, sx (f a)) -> sx (bind m f).
Proof. exact (EscapeRuns.sx_bind srel escapes m f). Qed.
Lemma sx_ext {A} (m m' : M A) : (forall r, m r = m' r) -> sx m' -> sx m.
Proof. exact (EscapeRuns.sx_ext srel escapes m m'). Qed.

Ltac sx_walk lem :=
  plain_walk (@sx) lem (@sx_ext) (fun A a => sx_alike _ (@alike_ret A a)) (fun A => sx_alike _ (@alike_fuel A))
             (fun A c => sx_alike _ (@alike_error A c)) (fun A c => sx_alike _ (@alike_peek_error A c)) (@sx_bind)
             (sx_alike _ alike_peek) (sx_alike _ alike_next) (sx_alike _ alike_eat)
             (fun A c => sx_alike _ (@alike_error_consume A c)).

Lemma sx_peek_or_null : sx peek_or_null.
Proof. sx_walk walk_peek_or_null. Qed.
Lemma sx_next_or_eof : sx next_or_eof.
Proof. sx_walk walk_next_or_eof. Qed.
Lemma sx_next_or_eof_char : sx next_or_eof_char.
Proof. sx_walk walk_next_or_eof_char. Qed.
Lemma sx_as_str b : sx (Scan.as_str b).
Proof. sx_walk walk_as_str. Qed.
(* the one difference: the str reader does not validate *)
Lemma sx_finish_str b : sx (finish_str b).
Proof.
  intros r1 r2 H. pose proof H as (K1 & K2 & _). unfold sc, finish_str. rewrite K1, K2. unfold Scan.as_str.
  destruct (utf8_valid b).
  - right. split; [reflexivity|exact H].
  - left. unfold error. destruct (r_position r2). exact I.
Qed.
Lemma sx_scan_symbol_slice scratch : sx (scan_symbol_slice scratch).
Proof. sx_walk walk_scan_symbol_slice. exact (sx_alike _ alike_take_symbol). Qed.
Lemma sx_parse_symbol_rd fuel scratch : sx (parse_symbol_rd fuel scratch).
Proof.
  intros r1 r2 H. pose proof H as (K1 & K2 & _). unfold sc, parse_symbol_rd. rewrite K1, K2.
  apply (sx_bind _ _ (sx_scan_symbol_slice scratch) sx_finish_str). exact H.
Qed.
Lemma sx_hex_escape_loop fuel : forall x, sx (hex_escape_loop fuel x).
Proof. sx_walk walk_hex_escape_loop. Qed.
Lemma sx_parse_r6rs_escape fuel : sx (parse_r6rs_escape fuel).
Proof. sx_walk walk_parse_r6rs_escape. Qed.
Lemma sx_r6rs_str_slice fuel : forall scratch, sx (r6rs_str_slice fuel scratch).
Proof. sx_walk walk_r6rs_str_slice. exact (sx_alike _ alike_take_run). Qed.
Lemma sx_parse_r6rs_str_rd fuel : sx (parse_r6rs_str_rd fuel).
Proof.
  intros r1 r2 H. pose proof H as (K1 & K2 & _). unfold sc, parse_r6rs_str_rd. rewrite K1, K2.
  apply (sx_bind _ _ (sx_r6rs_str_slice fuel []) sx_finish_str). exact H.
Qed.
Lemma sx_elisp_hex_loop fuel : forall x, sx (elisp_hex_loop fuel x).
Proof. sx_walk walk_elisp_hex_loop. Qed.
Lemma sx_decode_elisp_uni_escape k : forall x, sx (decode_elisp_uni_escape k x).
Proof. sx_walk walk_decode_elisp_uni_escape. Qed.
Lemma sx_elisp_octal_loop fuel : forall x, sx (elisp_octal_loop fuel x).
Proof. sx_walk walk_elisp_octal_loop. Qed.
Lemma sx_elisp_char_escape_of x : sx (elisp_char_escape_of x).
Proof. sx_walk walk_elisp_char_escape_of. Qed.
Lemma sx_elisp_uni_escape_of x : sx (elisp_uni_escape_of x).
Proof. sx_walk walk_elisp_uni_escape_of. Qed.
Lemma sx_parse_elisp_escape fuel : sx (parse_elisp_escape fuel).
Proof. sx_walk walk_parse_elisp_escape. Qed.
Lemma sx_elisp_finish fl scratch : sx (elisp_finish fl scratch).
Proof. sx_walk walk_elisp_finish. Qed.
Lemma sx_elisp_str_slice fuel : forall fl scratch, sx (elisp_str_slice fuel fl scratch).
Proof. sx_walk walk_elisp_str_slice. exact (sx_alike _ alike_take_run). Qed.
Lemma sx_parse_elisp_str_rd fuel : sx (parse_elisp_str_rd fuel).
Proof.
  intros r1 r2 H. pose proof H as (K1 & K2 & _). unfold sc, parse_elisp_str_rd. cbv zeta. rewrite K1, K2.
  apply sx_elisp_str_slice. exact H.
Qed.
Lemma sx_take_bytes k : forall acc, sx (take_bytes k acc).
Proof. sx_walk walk_take_bytes. Qed.
Lemma sx_decode_utf8_sequence_b c : sx (decode_utf8_sequence_b c).
Proof. sx_walk walk_decode_utf8_sequence_b. Qed.
Lemma sx_decode_utf8_sequence c : sx (decode_utf8_sequence c).
Proof. sx_walk walk_decode_utf8_sequence. Qed.
Lemma sx_r6rs_char_hex_loop fuel : forall x first, sx (r6rs_char_hex_loop fuel x first).
Proof. sx_walk walk_r6rs_char_hex_loop. Qed.
Lemma sx_char_name_loop fuel : forall scratch, sx (char_name_loop fuel scratch).
Proof. sx_walk walk_char_name_loop. Qed.
Lemma sx_open_ended_char x : sx (open_ended_char x).
Proof. sx_walk walk_open_ended_char. Qed.
Lemma sx_parse_r6rs_char fuel : sx (parse_r6rs_char fuel).
Proof. sx_walk walk_parse_r6rs_char. Qed.
Lemma sx_as_char x : sx (Scan.as_char x).
Proof. sx_walk walk_as_char. Qed.
Lemma sx_decode_elisp_char_escape fuel : sx (decode_elisp_char_escape fuel).
Proof. sx_walk walk_decode_elisp_char_escape. Qed.
Lemma sx_parse_elisp_char fuel : sx (parse_elisp_char fuel).
Proof. sx_walk walk_parse_elisp_char. Qed.

Section NumStr.
  Variable fast : bool.
  Variable std_parse : N -> Z -> f64.

  Lemma sx_fast_loop fuel : forall f e, sx (f64_from_parts_fast_loop fuel f e).
  Proof. sx_walk walk_fast_loop. Qed.
  Lemma sx_f64_from_parts pos sig e : sx (f64_from_parts fast std_parse pos sig e).
  Proof. sx_walk walk_f64_from_parts. Qed.
  Lemma sx_skip_digits fuel : sx (skip_digits fuel).
  Proof. sx_walk walk_skip_digits. Qed.
  Lemma sx_parse_exponent_overflow fuel p s pe : sx (parse_exponent_overflow fuel p s pe).
  Proof. sx_walk walk_parse_exponent_overflow. Qed.
  Lemma sx_exponent_digits fuel : forall p s pe se e, sx (exponent_digits fast std_parse fuel p s pe se e).
  Proof. sx_walk walk_exponent_digits. Qed.
  Lemma sx_parse_exponent fuel p s se : sx (parse_exponent fast std_parse fuel p s se).
  Proof. sx_walk walk_parse_exponent. Qed.
  Lemma sx_decimal_digits fuel : forall s e o, sx (decimal_digits fuel s e o).
  Proof. sx_walk walk_decimal_digits. Qed.
  Lemma sx_parse_decimal fuel p s e : sx (parse_decimal fast std_parse fuel p s e).
  Proof. sx_walk walk_parse_decimal. Qed.
  Lemma sx_parse_long_integer fuel : forall radix p s e, sx (parse_long_integer fast std_parse fuel radix p s e).
  Proof. sx_walk walk_parse_long_integer. Qed.
  Lemma sx_parse_num_tail fuel radix p s : sx (parse_num_tail fast std_parse fuel radix p s).
  Proof. sx_walk walk_parse_num_tail. Qed.
  Lemma sx_num_literal_loop fuel : forall radix p s, sx (num_literal_loop fast std_parse fuel radix p s).
  Proof. sx_walk walk_num_literal_loop. Qed.
  Lemma sx_parse_num_literal fuel radix p : sx (parse_num_literal fast std_parse fuel radix p).
  Proof. sx_walk walk_parse_num_literal. Qed.
End NumStr.

Section TokenStr.
  Variable ro : parse_options.
  Variable alpha : N -> bool.
  Variable fast : bool.
  Variable std_parse : N -> Z -> f64.

  Lemma sx_parse_num_token fuel radix p : sx (parse_num_token fast std_parse fuel radix p).
  Proof. sx_walk walk_parse_num_token. Qed.
  Lemma sx_parse_radix_literal fuel radix : sx (parse_radix_literal fast std_parse fuel radix).
  Proof. sx_walk walk_parse_radix_literal. Qed.
  Lemma sx_parse_number fuel : sx (parse_number fast std_parse fuel).
  Proof. sx_walk walk_parse_number. Qed.
  Lemma sx_skip_comment fuel : sx (skip_comment fuel).
  Proof. sx_walk walk_skip_comment. Qed.
  Lemma sx_parse_whitespace fuel : sx (parse_whitespace fuel).
  Proof. sx_walk walk_parse_whitespace. Qed.
  Lemma sx_parse_symbol fuel : sx (parse_symbol fuel).
  Proof. apply sx_parse_symbol_rd. Qed.
  Lemma sx_parse_symbol_suffix fuel p : sx (parse_symbol_suffix fuel p).
  Proof. apply sx_parse_symbol_rd. Qed.
  Lemma sx_expect_ident ident : sx (expect_ident ident).
  Proof. sx_walk walk_expect_ident. Qed.
  Lemma sx_parse_token fuel b : sx (parse_token ro alpha fast std_parse fuel b).
  Proof. sx_walk walk_parse_token; auto using sx_parse_symbol_rd, sx_parse_r6rs_str_rd, sx_parse_elisp_str_rd. Qed.
  Lemma sx_end_seq fuel close : sx (end_seq fuel close).
  Proof. sx_walk walk_end_seq. Qed.
  Lemma sx_expect_end fuel : sx (expect_end fuel).
  Proof. sx_walk walk_expect_end. Qed.
  Lemma sx_byte_list_loop fuel : forall close acc, sx (byte_list_loop fast std_parse fuel close acc).
  Proof. sx_walk walk_byte_list_loop. Qed.
  Lemma sx_parse_byte_list fuel close : sx (parse_byte_list fast std_parse fuel close).
  Proof. sx_walk walk_parse_byte_list. Qed.
End TokenStr.

Definition sprel (s1 s2 : pstate) : Prop := srel (rd s1) (rd s2) /\ depth s1 = depth s2.
Definition pesc {A} (x : pres A) : Prop :=
  match x with
  | PErr (XErr EFuel) => True
  | PErr (XErr (ESyntax InvalidUnicodeCodePoint _ _)) => True
  | PErr (XPanic _) => True
  | _ => False
  end.
Definition is_pok {A} (x : pres A) : Prop := match x with POk _ => True | _ => False end.
Definition psc {A} (m : PM A) (s1 s2 : pstate) : Prop :=
  pesc (fst (m s2)) \/ fst (m s1) = PErr (XErr EFuel) \/
  (fst (m s1) = fst (m s2) /\ depth (snd (m s1)) = depth (snd (m s2)) /\
   (is_pok (fst (m s2)) -> srel (rd (snd (m s1))) (rd (snd (m s2))))).
Definition psx {A} (m : PM A) : Prop := forall s1 s2, sprel s1 s2 -> psc m s1 s2.

Lemma psx_nest_gen {A B} (body : PM A) (cont : res A -> PM B) :
  psx body -> (forall a, psx (cont (Ok a))) ->
  (forall x s, ((255 <=? depth s) = true /\ fst (cont (Err x) s) = PErr (XPanic 2)) \/
               ((255 <=? depth s) = false /\ depth (snd (cont (Err x) s)) = depth s + 1 /\
                (fst (cont (Err x) s) = PErr (XErr x) \/ fst (cont (Err x) s) = PErr (XErr EFuel)))) ->
  psx (pbind (attempt body) cont).
Proof. exact (EscapeRuns.psx_nest_gen srel escapes I body cont). Qed.
Lemma psx_liftR {A} (m : M A) : sx m -> psx (liftR m).
Proof. exact (EscapeRuns.psx_liftR srel escapes m). Qed.
Lemma psx_nest_seq {A B} (body : PM A) (endm : M unit) (k : A -> PM B) :
  psx body -> sx endm -> (forall a, psx (k a)) ->
  psx (pbind (attempt body) (fun r =>
       pbind inc_depth (fun _ =>
       pbind (attempt (liftR endm)) (fun e =>
       pbind (both r e) k)))).
Proof. exact (EscapeRuns.psx_nest_seq srel escapes I body endm k). Qed.

Section ParserStr.
  Variable ro : parse_options.
  Variable alpha : N -> bool.
  Variable fast : bool.
  Variable std_parse : N -> Z -> f64.

  Local Notation next_value := (next_value ro alpha fast std_parse).
  Local Notation parse_list := (parse_list ro alpha fast std_parse).
  Local Notation parse_vector := (parse_vector ro alpha fast std_parse).
  Local Notation next_datum := (next_datum ro alpha fast std_parse).
  Local Notation parse_list_meta := (parse_list_meta ro alpha fast std_parse).
  Local Notation parse_vector_meta := (parse_vector_meta ro alpha fast std_parse).

  Ltac psx_walk lem :=
    plain_pwalk lem (@sx) (@psx) (@EscapeRuns.psx_pret srel escapes) (@EscapeRuns.psx_fuel srel escapes I)
                (@EscapeRuns.psx_bind srel escapes) (@psx_liftR)
                (EscapeRuns.psx_enter_nesting srel escapes (fun A c => sx_alike _ (@alike_peek_error A c)))
                (@psx_nest_seq) (@EscapeRuns.psx_nest_quote srel escapes I);
    auto using sx_alike, alike_peek_error, alike_peek, alike_eat, alike_position, sx_bind, sx_parse_whitespace, sx_parse_token,
      sx_parse_symbol_suffix, sx_parse_byte_list, sx_end_seq.

  Theorem str_values fuel :
    psx (next_value fuel) /\ (forall t acc, psx (parse_list fuel t acc)) /\ (forall t acc, psx (parse_vector fuel t acc)).
  Proof. psx_walk pwalk_values. Qed.

  Theorem str_datums fuel :
    psx (next_datum fuel) /\ (forall t acc, psx (parse_list_meta fuel t acc)) /\ (forall t acc, psx (parse_vector_meta fuel t acc)).
  Proof. psx_walk pwalk_datums. Qed.

  Lemma init_sprel (inp : list event) : sprel (init_state SrcStr inp) (init_state SrcSlice inp).
  Proof. unfold sprel, init_state, mk_reader, srel. cbn [rd depth rk rline rcol rpending rinput]. repeat split. Qed.

  Theorem from_trait_str_slice (inp : list event) :
    pesc (from_trait ro alpha fast std_parse SrcSlice inp) \/
    from_trait ro alpha fast std_parse SrcStr inp = PErr (XErr EFuel) \/
    from_trait ro alpha fast std_parse SrcStr inp = from_trait ro alpha fast std_parse SrcSlice inp.
  Proof.
    unfold from_trait. cbv zeta.
    pose proof (EscapeRuns.psx_whole srel escapes (expect_value ro alpha fast std_parse (fuel_for inp)) (fuel_for inp) (sx_expect_end _) ltac:(psx_walk pwalk_expect_value)) as H.
    destruct (H _ _ (init_sprel inp)) as [E|[E|(E & _)]]; [left; exact E|right; left; exact E|right; right; exact E].
  Qed.
  Theorem datum_from_trait_str_slice (inp : list event) :
    pesc (datum_from_trait ro alpha fast std_parse SrcSlice inp) \/
    datum_from_trait ro alpha fast std_parse SrcStr inp = PErr (XErr EFuel) \/
    datum_from_trait ro alpha fast std_parse SrcStr inp = datum_from_trait ro alpha fast std_parse SrcSlice inp.
  Proof.
    unfold datum_from_trait. cbv zeta.
    pose proof (EscapeRuns.psx_whole srel escapes (expect_datum ro alpha fast std_parse (fuel_for inp)) (fuel_for inp) (sx_expect_end _) ltac:(psx_walk pwalk_expect_datum)) as H.
    destruct (H _ _ (init_sprel inp)) as [E|[E|(E & _)]]; [left; exact E|right; left; exact E|right; right; exact E].
  Qed.
End ParserStr.
