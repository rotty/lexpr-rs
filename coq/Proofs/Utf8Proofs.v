(* A small theory of well-formed UTF-8 as the model defines it (Utf8.v):
   a valid string is a concatenation of well-formed sequences; validity is
   closed under concatenation, under the printer's escaping, and under
   removing a trailing ASCII byte. *)
From Coq Require Import Lia ZifyBool ZifyNat ZifyN.
Require Import Base Utf8.

Definition wf_seq (s : bytes) : Prop := s <> [] /\ forall l, utf8_head_len (s ++ l) = length s.
Definition seq_shape (s : bytes) : Prop :=
  (exists b, s = [b] /\ b < 128) \/ ((2 <= length s)%nat /\ Forall (fun b => 128 <= b) s).

Inductive seqs : bytes -> Prop :=
| seqs_nil : seqs []
| seqs_cons s l : wf_seq s -> seq_shape s -> seqs l -> seqs (s ++ l).

(* One well-formed sequence, by its length (Unicode table 3-7): after the lead
   bytes E0, ED, F0 and F4 the range of the second byte is narrower. *)
Inductive useq : bytes -> Prop :=
| useq1 b0 : b0 < 128 -> useq [b0]
| useq2 b0 b1 : 194 <= b0 <= 223 -> is_cont b1 = true -> useq [b0; b1]
| useq3 b0 b1 b2 : 224 <= b0 <= 239 -> is_cont b1 = true -> (b0 = 224 -> 160 <= b1) -> (b0 = 237 -> b1 <= 159) ->
    is_cont b2 = true -> useq [b0; b1; b2]
| useq4 b0 b1 b2 b3 : 240 <= b0 <= 244 -> is_cont b1 = true -> (b0 = 240 -> 144 <= b1) -> (b0 = 244 -> b1 <= 143) ->
    is_cont b2 = true -> is_cont b3 = true -> useq [b0; b1; b2; b3].

Lemma head_len_useq l n : utf8_head_len l = n -> n <> 0%nat -> useq (firstn n l).
Proof.
  intros <-. destruct l as [|b0 r]; [easy|]. unfold utf8_head_len.
  destruct (b0 <? 128) eqn:E0.
  { constructor. lia. }
  destruct (in_range 194 223 b0) eqn:E1.
  { destruct r as [|b1 r]; [easy|]. destruct (is_cont b1) eqn:Ec; [|easy].
    constructor; unfold is_cont, in_range in *; lia. }
  destruct (b0 =? 224) eqn:E2.
  { destruct r as [|b1 [|b2 r]]; try easy. destruct (in_range 160 191 b1 && is_cont b2)%bool eqn:Ec; [|easy].
    constructor; unfold is_cont, in_range in *; lia. }
  destruct (in_range 225 236 b0 || in_range 238 239 b0)%bool eqn:E3.
  { destruct r as [|b1 [|b2 r]]; try easy. destruct (is_cont b1 && is_cont b2)%bool eqn:Ec; [|easy].
    constructor; unfold is_cont, in_range in *; lia. }
  destruct (b0 =? 237) eqn:E4.
  { destruct r as [|b1 [|b2 r]]; try easy. destruct (in_range 128 159 b1 && is_cont b2)%bool eqn:Ec; [|easy].
    constructor; unfold is_cont, in_range in *; lia. }
  destruct (b0 =? 240) eqn:E5.
  { destruct r as [|b1 [|b2 [|b3 r]]]; try easy.
    destruct (in_range 144 191 b1 && is_cont b2 && is_cont b3)%bool eqn:Ec; [|easy].
    constructor; unfold is_cont, in_range in *; lia. }
  destruct (in_range 241 243 b0) eqn:E6.
  { destruct r as [|b1 [|b2 [|b3 r]]]; try easy. destruct (is_cont b1 && is_cont b2 && is_cont b3)%bool eqn:Ec; [|easy].
    constructor; unfold is_cont, in_range in *; lia. }
  destruct (b0 =? 244) eqn:E7; [|easy].
  destruct r as [|b1 [|b2 [|b3 r]]]; try easy.
  destruct (in_range 128 143 b1 && is_cont b2 && is_cont b3)%bool eqn:Ec; [|easy].
  constructor; unfold is_cont, in_range in *; lia.
Qed.

Lemma useq_head_len s l : useq s -> utf8_head_len (s ++ l) = length s.
Proof.
  (* the bounds decide each test of utf8_head_len in turn *)
  destruct 1; cbn [app utf8_head_len length]; unfold is_cont, in_range in *;
    repeat match goal with |- (if ?c then _ else _) = _ => destruct c eqn:?; try lia end.
Qed.

Lemma useq_wf s : useq s -> wf_seq s.
Proof. intros H. split; [destruct H; discriminate|intros l; apply useq_head_len, H]. Qed.

Lemma wf_useq s : wf_seq s -> useq s.
Proof.
  intros [Hne Hhd]. specialize (Hhd []). rewrite app_nil_r in Hhd.
  apply head_len_useq in Hhd; [rewrite firstn_all in Hhd; exact Hhd|]. destruct s; [contradiction|discriminate].
Qed.

Lemma useq_shape s : useq s -> seq_shape s.
Proof.
  destruct 1; [left; eauto|right..]; (split; [cbn; lia|repeat constructor; unfold is_cont, in_range in *; lia]).
Qed.

Lemma useq_bytes s : useq s -> exists b0 t, s = b0 :: t /\ is_cont b0 = false /\ Forall (fun b => is_cont b = true) t.
Proof.
  destruct 1; eexists _, _; (split; [reflexivity|]); (split; [unfold is_cont, in_range; lia|repeat constructor; assumption]).
Qed.

Lemma useq_scalar s : useq s -> is_scalar (utf8_decode_head s) = true.
Proof. destruct 1; cbn [utf8_decode_head]; unfold is_scalar, is_cont, in_range in *; lia. Qed.

Lemma skipn_app_exact {A} (s l : list A) : skipn (length s) (s ++ l) = l.
Proof. induction s as [|x s IH]; cbn [length skipn app]; auto. Qed.

Lemma valid_fuel_seqs fuel : forall l, utf8_valid_fuel fuel l = true -> seqs l.
Proof.
  induction fuel as [|f IH]; intros l H; destruct l as [|b l]; try constructor; cbn [utf8_valid_fuel] in H; try discriminate.
  destruct (utf8_head_len (b :: l)) as [|n] eqn:En; [discriminate|].
  pose proof (head_len_useq _ _ En ltac:(discriminate)) as Hu.
  rewrite <- (firstn_skipn (S n) (b :: l)). constructor; [apply useq_wf, Hu|apply useq_shape, Hu|apply IH, H].
Qed.

Lemma valid_fuel_mono fuel : forall l fuel', utf8_valid_fuel fuel l = true -> (fuel <= fuel')%nat ->
  utf8_valid_fuel fuel' l = true.
Proof.
  induction fuel as [|f IH]; intros l fuel' H Hle; destruct l as [|b l]; try (destruct fuel'; reflexivity);
    cbn [utf8_valid_fuel] in H; try discriminate.
  destruct fuel' as [|f']; [lia|]. cbn [utf8_valid_fuel].
  destruct (utf8_head_len (b :: l)) as [|n]; [discriminate|]. apply (IH _ f' H). lia.
Qed.

Lemma seqs_valid l : seqs l -> utf8_valid l = true.
Proof.
  unfold utf8_valid. induction 1 as [|s l [Hne Hhd] Hsh Hl IH]; [reflexivity|].
  destruct s as [|b s]; [contradiction|]. rewrite app_length. cbn [length plus app utf8_valid_fuel].
  change (b :: s ++ l) with ((b :: s) ++ l). rewrite (Hhd l). cbn [length].
  change (skipn (S (length s)) ((b :: s) ++ l)) with (skipn (length (b :: s)) ((b :: s) ++ l)).
  rewrite skipn_app_exact. apply (valid_fuel_mono _ _ _ IH). lia.
Qed.

Theorem valid_iff_seqs l : utf8_valid l = true <-> seqs l.
Proof. split; [apply valid_fuel_seqs|apply seqs_valid]. Qed.

Lemma seqs_app a b : seqs a -> seqs b -> seqs (a ++ b).
Proof. induction 1 as [|s l Hwf Hsh Hl IH]; intros Hb; [exact Hb|]. rewrite <- app_assoc. constructor; auto. Qed.

Theorem utf8_valid_app a b : utf8_valid a = true -> utf8_valid b = true -> utf8_valid (a ++ b) = true.
Proof. rewrite !valid_iff_seqs. apply seqs_app. Qed.

Definition all_ascii (l : bytes) : Prop := Forall (fun b => b < 128) l.

Lemma ascii_seqs l : all_ascii l -> seqs l.
Proof.
  induction 1 as [|b l Hb Hl IH]; [constructor|]. apply (seqs_cons [b]); [apply useq_wf|apply useq_shape|exact IH]; constructor; exact Hb.
Qed.
Theorem ascii_valid l : all_ascii l -> utf8_valid l = true.
Proof. intros H. apply valid_iff_seqs, ascii_seqs, H. Qed.

Lemma seqs_flat_map (f : N -> bytes) :
  (forall b, b < 128 -> all_ascii (f b)) -> (forall b, 128 <= b -> f b = [b]) ->
  forall l, seqs l -> seqs (flat_map f l).
Proof.
  intros Hlo Hhi l. induction 1 as [|s l Hwf Hsh Hl IH]; [constructor|].
  rewrite flat_map_app. destruct Hsh as [(b & -> & Hb)|Hsh].
  - cbn [flat_map]. rewrite app_nil_r. apply seqs_app; [apply ascii_seqs, Hlo, Hb|exact IH].
  - assert (E : flat_map f s = s).
    { clear Hwf. destruct Hsh as [_ Hall]. induction Hall as [|b s Hb Hs IHs]; [reflexivity|]. cbn [flat_map]. rewrite (Hhi b Hb), IHs. reflexivity. }
    rewrite E. constructor; [exact Hwf|right; exact Hsh|exact IH].
Qed.

Definition boundary_head (l : bytes) : Prop := match l with [] => True | b :: _ => is_cont b = false end.

Lemma seqs_boundary l : seqs l -> boundary_head l.
Proof.
  intros [|s l' Hwf _ _]; [exact I|]. destruct (useq_bytes s (wf_useq s Hwf)) as (b0 & t & -> & H0 & _). exact H0.
Qed.

Lemma seqs_split l : seqs l -> forall a b, l = a ++ b -> boundary_head b -> seqs a /\ seqs b.
Proof.
  induction 1 as [|s l Hwf Hsh Hl IH]; intros a b E Hb.
  - symmetry in E. apply app_eq_nil in E. destruct E as [-> ->]. split; constructor.
  - apply app_eq_app in E. destruct E as (m & [[-> ->]|[-> ->]]).
    + (* the cut falls in s: at its end, at its start, or at a continuation byte *)
      destruct m as [|c m]; [rewrite app_nil_r in *; split; [rewrite <- (app_nil_r a)|]; auto using seqs|].
      destruct a as [|a0 a]; [split; constructor; auto|]. exfalso.
      destruct (useq_bytes _ (wf_useq _ Hwf)) as (b0 & t & E & _ & Ht). injection E as _ <-.
      apply Forall_app in Ht. destruct Ht as [_ Ht]. inversion Ht; subst. cbn in Hb. congruence.
    + destruct (IH m b eq_refl Hb) as [Hm Hb']. split; [constructor; auto|exact Hb'].
Qed.

Theorem utf8_valid_split a b : utf8_valid (a ++ b) = true -> boundary_head b -> utf8_valid a = true /\ utf8_valid b = true.
Proof.
  intros H Hb. apply valid_iff_seqs in H. destruct (seqs_split _ H a b eq_refl Hb) as [Ha Hb'].
  split; apply valid_iff_seqs; assumption.
Qed.

Lemma valid_boundary l : utf8_valid l = true -> boundary_head l.
Proof. intros H. apply seqs_boundary, valid_iff_seqs, H. Qed.

Lemma ascii_boundary b l : b < 128 -> boundary_head (b :: l).
Proof. intros H. cbn. unfold is_cont, in_range. lia. Qed.

Theorem utf8_valid_slice a s b : utf8_valid (a ++ s ++ b) = true -> boundary_head (s ++ b) -> boundary_head b ->
  utf8_valid s = true.
Proof.
  intros H Hs Hb. destruct (utf8_valid_split a (s ++ b) H Hs) as [_ H1].
  destruct (utf8_valid_split s b H1 Hb) as [H2 _]. exact H2.
Qed.

Theorem utf8_valid_after a b : utf8_valid (a ++ b) = true -> utf8_valid a = true -> utf8_valid b = true.
Proof.
  intros H Ha. apply valid_iff_seqs in H. apply valid_iff_seqs in Ha. apply valid_iff_seqs.
  revert b H. induction Ha as [|s l Hwf Hsh Hl IH]; intros b H; [exact H|].
  rewrite <- app_assoc in H. inversion H as [E|s' l' Hwf' Hsh' Hl' E].
  - destruct Hwf as [Hne _]. destruct s; [contradiction|discriminate].
  - (* both decompositions start with the same sequence *)
    assert (Es : s' = s /\ l' = l ++ b).
    { destruct Hwf as [_ Hh]. destruct Hwf' as [_ Hh']. pose proof (Hh (l ++ b)) as L1. pose proof (Hh' l') as L2.
      rewrite E in L2. rewrite L1 in L2.
      assert (Ef : firstn (length s) (s' ++ l') = firstn (length s) (s ++ l ++ b)) by (rewrite E; reflexivity).
      rewrite L2 in Ef at 1. rewrite !firstn_app, !Nat.sub_diag, !firstn_all in Ef. cbn [firstn] in Ef. rewrite !app_nil_r in Ef.
      split; [exact Ef|]. subst s'. apply app_inv_head in E. exact E. }
    destruct Es as [-> ->]. apply IH. exact Hl'.
Qed.

Theorem utf8_valid_drop_last_ascii a c : c < 128 -> utf8_valid (a ++ [c]) = true -> utf8_valid a = true.
Proof. intros Hc H. apply (utf8_valid_split a [c] H), ascii_boundary, Hc. Qed.

Theorem utf8_valid_after_ascii a c b : utf8_valid (a ++ c :: b) = true -> c < 128 -> utf8_valid b = true.
Proof.
  intros H Hc. destruct (utf8_valid_split a (c :: b) H (ascii_boundary c b Hc)) as [_ H1].
  apply (utf8_valid_after [c] b H1), ascii_valid. repeat constructor. exact Hc.
Qed.
