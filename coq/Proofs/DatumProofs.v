(* C10: the location-tracking parser (next_datum, parse_list_meta,
   parse_vector_meta) computes the same values, errors and final states as
   the plain one (next_value, parse_list, parse_vector). *)
From Coq Require Import SpecFloat.
Require Import Base Value Float PrintOptions ParseOptions Utf8 Reader Scan Num NumberOps Parser.

Definition pmap {A B} (f : B -> A) (x : pres B * pstate) : pres A * pstate :=
  (match fst x with POk b => POk (f b) | PErr e => PErr e end, snd x).

Definition agree {A B} (f : B -> A) (m1 : PM A) (m2 : PM B) : Prop :=
  forall s, m1 s = pmap f (m2 s).

Lemma agree_ret {A B} (f : B -> A) b : agree f (pret (f b)) (pret b).
Proof. intros s; reflexivity. Qed.
Lemma agree_ret' {A B} (f : B -> A) a b : a = f b -> agree f (pret a) (pret b).
Proof. intros -> s; reflexivity. Qed.
Lemma agree_fail {A B} (f : B -> A) e : agree f (pfail e) (pfail e).
Proof. intros s; reflexivity. Qed.

Lemma agree_peek_error {A B} (f : B -> A) c :
  agree f (liftR (peek_error (A := A) c)) (liftR (peek_error (A := B) c)).
Proof.
  intros s. unfold liftR, peek_error, pmap. destruct (r_peek_position (rd s)) as [l cl]. reflexivity.
Qed.

Lemma agree_bind_same {A B C} (f : B -> A) (m : PM C) (k1 : C -> PM A) (k2 : C -> PM B) :
  (forall c, agree f (k1 c) (k2 c)) -> agree f (pbind m k1) (pbind m k2).
Proof.
  intros H s. unfold pbind. destruct (m s) as [[c|e] s']; [apply H|reflexivity].
Qed.

Lemma agree_bind_map {A B C D} (f : B -> A) (g : D -> C) (m1 : PM C) (m2 : PM D)
      (k1 : C -> PM A) (k2 : D -> PM B) :
  agree g m1 m2 -> (forall d, agree f (k1 (g d)) (k2 d)) -> agree f (pbind m1 k1) (pbind m2 k2).
Proof.
  intros Hm Hk s. unfold pbind. rewrite (Hm s). unfold pmap at 1.
  destruct (m2 s) as [[d|e] s']; cbn [fst snd]; [apply Hk|reflexivity].
Qed.

Lemma agree_position_r {A B} (f : B -> A) (k1 : PM A) (k2 : pos -> PM B) :
  (forall p, agree f k1 (k2 p)) -> agree f k1 (pbind (liftR position) k2).
Proof.
  intros H s. unfold pbind, liftR, position. cbn [fst snd].
  destruct s as [r d]; cbn [rd depth]. apply H.
Qed.

Definition res_map {A B} (g : B -> A) (r : res B) : res A :=
  match r with Ok b => Ok (g b) | Err e => Err e end.

Lemma agree_attempt {A B} (g : B -> A) (m1 : PM A) (m2 : PM B) :
  agree g m1 m2 -> agree (res_map g) (attempt m1) (attempt m2).
Proof.
  intros H s. unfold attempt. rewrite (H s). unfold pmap.
  destruct (m2 s) as [[b|[[c l cl|io|]|k]] s']; reflexivity.
Qed.

Lemma agree_attempt_same {A} (m : PM A) : agree (fun r : res A => r) (attempt m) (attempt m).
Proof. intros s. unfold pmap. destruct (attempt m s) as [[a|e] s']; reflexivity. Qed.

Lemma agree_lift {A B} (g : B -> A) (r : res B) : agree g (lift (res_map g r)) (lift r).
Proof. destruct r; intros s; reflexivity. Qed.

Lemma agree_both {A B} (g : B -> A) (r : res B) (e : res unit) :
  agree g (both (res_map g r) e) (both r e).
Proof. destruct r, e; intros s; reflexivity. Qed.

Section Agreement.
  Variable ro : parse_options.
  Variable alpha : N -> bool.
  Variable fast : bool.
  Variable std_parse : N -> Z -> f64.

  Local Notation next_value := (next_value ro alpha fast std_parse).
  Local Notation parse_list := (parse_list ro alpha fast std_parse).
  Local Notation parse_vector := (parse_vector ro alpha fast std_parse).
  Local Notation next_datum := (next_datum ro alpha fast std_parse).
  Local Notation parse_list_meta := (parse_list_meta ro alpha fast std_parse).
  Local Notation parse_vector_meta := (parse_vector_meta ro alpha fast std_parse).

  (* the value of what parse_list_meta collected, as Datum::cons / the Null case build it *)
  Definition list_value (l : list datum * option datum) : value :=
    match l with
    | ([], _) => Null
    | (ds, tl) => build (map dvalue ds) (match tl with Some t => dvalue t | None => Null end)
    end.

  Lemma list_datum_value l a b : dvalue (list_datum l a b) = list_value l.
  Proof. destruct l as [[|d ds] tl]; reflexivity. Qed.

  Lemma list_value_closed ds : build (map dvalue ds) Null = list_value (ds, None).
  Proof. destruct ds; reflexivity. Qed.
  Lemma list_value_dotted ds cdr : ds <> [] ->
    build (map dvalue ds) (dvalue cdr) = list_value (ds, Some cdr).
  Proof. destruct ds; [congruence|reflexivity]. Qed.

  Lemma map_snoc ds d : map dvalue ds ++ [dvalue d] = map dvalue (ds ++ [d]).
  Proof. now rewrite map_app. Qed.

  Lemma agreement fuel :
    agree (option_map dvalue) (next_value fuel) (next_datum fuel) /\
    (forall t acc, agree list_value (parse_list fuel t (map dvalue acc)) (parse_list_meta fuel t acc)) /\
    (forall t acc, agree (map dvalue) (parse_vector fuel t (map dvalue acc)) (parse_vector_meta fuel t acc)).
  Proof.
    induction fuel as [|f (IHv & IHl & IHvec)].
    - split; [|split]; intros;
        cbn [Parser.next_value Parser.parse_list Parser.parse_vector
             Parser.next_datum Parser.parse_list_meta Parser.parse_vector_meta]; apply agree_fail.
    - split; [|split]; intros;
        cbn [Parser.next_value Parser.parse_list Parser.parse_vector
             Parser.next_datum Parser.parse_list_meta Parser.parse_vector_meta].
      + (* next_value / next_datum *)
        apply agree_bind_same; intros [peek_b|]; [|apply (agree_ret (option_map dvalue) None)].
        apply agree_position_r; intros start.
        apply agree_bind_same; intros tok.
        destruct tok;
          try (apply agree_position_r; intros e;
               match goal with |- agree _ (pret (Some ?v)) (pret (Some ?d)) =>
                 apply (agree_ret (option_map dvalue) (Some d)) end).
        * (* TListOpen *)
          apply agree_bind_same; intros _.
          apply (agree_bind_map _ (res_map list_value)); [apply agree_attempt; apply (IHl close [])|].
          intros r. apply agree_bind_same; intros _.
          apply agree_bind_same; intros e.
          apply (agree_bind_map _ list_value); [apply agree_both|].
          intros l. apply agree_position_r; intros e_pos.
          apply agree_ret'. cbn [option_map]. now rewrite list_datum_value.
        * (* TQuotation *)
          apply agree_position_r; intros token_end.
          apply agree_bind_same; intros _.
          apply (agree_bind_map _ (res_map (option_map dvalue))); [apply agree_attempt; apply IHv|].
          intros r. apply agree_bind_same; intros _.
          apply (agree_bind_map _ (option_map dvalue)); [apply agree_lift|].
          intros [d|]; [|apply agree_peek_error].
          apply agree_ret'. reflexivity.
        * (* TVecOpen *)
          apply agree_bind_same; intros _.
          apply (agree_bind_map _ (res_map (map dvalue))); [apply agree_attempt; apply (IHvec close [])|].
          intros r. apply agree_bind_same; intros _.
          apply agree_bind_same; intros e.
          apply (agree_bind_map _ (map dvalue)); [apply agree_both|].
          intros els. apply agree_position_r; intros e_pos.
          apply agree_ret'. reflexivity.
        * (* TByteVecOpen *)
          apply agree_bind_same; intros b.
          apply agree_position_r; intros e.
          apply agree_ret'. reflexivity.
      + (* parse_list / parse_list_meta *)
        apply agree_bind_same; intros [c|]; [|apply agree_peek_error].
        destruct (is_closer c).
        { destruct (negb (c =? t)); [apply agree_peek_error|].
          apply agree_ret'. apply list_value_closed. }
        destruct (c =? 46).
        { apply agree_position_r; intros start.
          apply agree_bind_same; intros nx.
          destruct (lone_dot nx).
          - destruct acc as [|a0 acc'].
            + cbn [map]. apply agree_bind_same; intros [x|]; apply agree_peek_error.
            + cbn [map].
              apply (agree_bind_map _ (option_map dvalue)); [apply IHv|].
              intros [cdr|]; [|apply agree_peek_error].
              cbn [option_map].
              apply agree_bind_same; intros [c2|]; [|apply agree_peek_error].
              destruct (c2 =? t); [|apply agree_peek_error].
              apply agree_ret'. apply (list_value_dotted (a0 :: acc')). discriminate.
          - apply agree_bind_same; intros name.
            apply agree_position_r; intros e.
            replace (map dvalue acc ++ [symbol_value ro name])
              with (map dvalue (acc ++ [prim_datum (symbol_value ro name) start e]))
              by (rewrite map_app; reflexivity).
            apply IHl. }
        apply (agree_bind_map _ (option_map dvalue)); [apply IHv|].
        intros [d|]; [|apply agree_peek_error].
        cbn [option_map]. rewrite map_snoc. apply IHl.
      + (* parse_vector / parse_vector_meta *)
        apply agree_bind_same; intros [c|]; [|apply agree_peek_error].
        destruct (is_closer c).
        { destruct (negb (c =? t)); [apply agree_peek_error|apply agree_ret]. }
        apply (agree_bind_map _ (option_map dvalue)); [apply IHv|].
        intros [d|]; [|apply agree_peek_error].
        cbn [option_map]. rewrite map_snoc. apply IHvec.
  Qed.

  Definition item_value (r : pres datum) : pres value :=
    match r with POk d => POk (dvalue d) | PErr e => PErr e end.

  Lemma iterate_agree fuel n s :
    iterate_values ro alpha fast std_parse fuel n s =
    map item_value (iterate_datums ro alpha fast std_parse fuel n s).
  Proof.
    revert s; induction n as [|n IH]; intros s; [reflexivity|].
    cbn [iterate_values iterate_datums].
    rewrite (proj1 (agreement fuel) s). unfold pmap.
    destruct (next_datum fuel s) as [[[d|]|e] s']; cbn [fst snd option_map map item_value];
      try reflexivity; now rewrite IH.
  Qed.
End Agreement.

Section Entry.
  Variable ro : parse_options.
  Variable alpha : N -> bool.
  Variable fast : bool.
  Variable std_parse : N -> Z -> f64.

  Lemma agree_expect fuel :
    agree dvalue (expect_value ro alpha fast std_parse fuel) (expect_datum ro alpha fast std_parse fuel).
  Proof.
    unfold expect_value, expect_datum.
    apply (agree_bind_map _ (option_map dvalue)); [apply agreement|].
    intros [d|]; [apply agree_ret|apply agree_peek_error].
  Qed.

  Lemma from_trait_agree k inp :
    from_trait ro alpha fast std_parse k inp =
    match datum_from_trait ro alpha fast std_parse k inp with
    | POk d => POk (dvalue d)
    | PErr e => PErr e
    end.
  Proof.
    unfold from_trait, datum_from_trait.
    assert (H : agree dvalue
                  (pbind (expect_value ro alpha fast std_parse (fuel_for inp))
                         (fun v => pbind (expect_end_p (fuel_for inp)) (fun _ => pret v)))
                  (pbind (expect_datum ro alpha fast std_parse (fuel_for inp))
                         (fun d => pbind (expect_end_p (fuel_for inp)) (fun _ => pret d)))).
    { apply (agree_bind_map _ dvalue); [apply agree_expect|].
      intros d. apply agree_bind_same; intros _. apply agree_ret. }
    rewrite (H (init_state k inp)). reflexivity.
  Qed.
End Entry.
