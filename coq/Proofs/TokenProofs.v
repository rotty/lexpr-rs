(* Token-level reading lemmas for the default dialect, all source kinds. *)
From Coq Require Import SpecFloat ZifyBool ZifyNat ZifyN.
Require Import Base Value Float PrintOptions ParseOptions Utf8 Reader Scan Num NumberOps Parser.
Require Import ReaderProofs ScanProofs.

Ltac step_peek :=
  match goal with
  | H : at_bytes ?r (?b :: ?l) |- context [bind peek _ ?r] =>
      let r' := fresh "r" in let E := fresh "E" in let Ha := fresh "Ha" in
      let Hp := fresh "Hp" in let Hk := fresh "Hk" in
      destruct (m_peek_cons r b l H) as (r' & E & Ha & Hp & Hk);
      rewrite (bind_ok _ _ _ _ _ E); clear E
  | H : at_bytes ?r [] |- context [bind peek _ ?r] =>
      let r' := fresh "r" in let E := fresh "E" in let Ha := fresh "Ha" in let Hk := fresh "Hk" in
      destruct (m_peek_nil r H) as (r' & E & Ha & Hk);
      rewrite (bind_ok _ _ _ _ _ E); clear E
  end.
Ltac step_peek0 :=
  match goal with
  | H : at_bytes ?r (?b :: ?l) |- context [bind peek_or_null _ ?r] =>
      let r' := fresh "r" in let E := fresh "E" in let Ha := fresh "Ha" in
      let Hp := fresh "Hp" in let Hk := fresh "Hk" in
      destruct (m_peek_or_null_cons r b l H) as (r' & E & Ha & Hp & Hk);
      rewrite (bind_ok _ _ _ _ _ E); clear E
  | H : at_bytes ?r [] |- context [bind peek_or_null _ ?r] =>
      let r' := fresh "r" in let E := fresh "E" in let Ha := fresh "Ha" in let Hk := fresh "Hk" in
      destruct (m_peek_or_null_nil r H) as (r' & E & Ha & Hk);
      rewrite (bind_ok _ _ _ _ _ E); clear E
  end.
Ltac step_next :=
  match goal with
  | H : at_bytes ?r (?b :: ?l) |- context [bind next_char _ ?r] =>
      let r' := fresh "r" in let E := fresh "E" in let Ha := fresh "Ha" in let Hk := fresh "Hk" in
      destruct (m_next_cons r b l H) as (r' & E & Ha & Hk);
      rewrite (bind_ok _ _ _ _ _ E); clear E
  | H : at_bytes ?r [] |- context [bind next_char _ ?r] =>
      let r' := fresh "r" in let E := fresh "E" in let Ha := fresh "Ha" in let Hk := fresh "Hk" in
      destruct (m_next_nil r H) as (r' & E & Ha & Hk);
      rewrite (bind_ok _ _ _ _ _ E); clear E
  end.
Ltac step_eat :=
  match goal with
  | H : at_bytes ?r (?b :: ?l), Hp : peeked ?r |- context [bind eat_char _ ?r] =>
      let r' := fresh "r" in let E := fresh "E" in let Ha := fresh "Ha" in let Hk := fresh "Hk" in
      destruct (m_eat r b l H Hp) as (r' & E & Ha & Hk);
      rewrite (bind_ok _ _ _ _ _ E); clear E
  end.
Ltac step := first [step_eat | step_peek | step_peek0 | step_next].

Definition is_ws (c : N) : bool := memb c [32; 10; 9; 13; 12].
Definition starts_datum (c : N) : Prop := is_ws c = false /\ c <> 59.

Lemma ws_here fuel r b l : (1 <= fuel)%nat -> at_bytes r (b :: l) -> starts_datum b ->
  exists r', Parser.parse_whitespace fuel r = (Ok (Some b), r') /\ at_bytes r' (b :: l) /\ peeked r' /\ rk r' = rk r.
Proof.
  intros Hf Ha [Hw Hc]. destruct fuel as [|f]; [lia|]. cbn [Parser.parse_whitespace].
  step. assert (E59 : (b =? 59) = false) by lia. rewrite E59.
  unfold is_ws in Hw. rewrite Hw. exists r0. unfold ret. auto.
Qed.

Inductive trivia : bytes -> Prop :=
| tv_nil : trivia []
| tv_ws c t : is_ws c = true -> trivia t -> trivia (c :: t)
| tv_comment body t : Forall (fun c => c <> 10) body -> trivia t -> trivia (59 :: body ++ 10 :: t).

(* a final comment without a newline, allowed only at the very end of the input *)
Inductive trivia_eof : bytes -> Prop :=
| te_trivia t : trivia t -> trivia_eof t
| te_open t body : trivia t -> Forall (fun c => c <> 10) body -> trivia_eof (t ++ 59 :: body).

Lemma skip_comment_spec body : forall fuel r tail, (length body < fuel)%nat -> Forall (fun c => c <> 10) body ->
  (match tail with [] => True | c :: _ => c = 10 end) -> at_bytes r (body ++ tail) ->
  exists r', Parser.skip_comment fuel r = (Ok (match tail with [] => false | _ => true end), r') /\
             at_bytes r' (tl tail) /\ rk r' = rk r.
Proof.
  induction body as [|c body IH]; intros fuel r tail Hf Hb Ht Ha; (destruct fuel as [|f]; [cbn in Hf; lia|]);
    cbn [Parser.skip_comment app] in *.
  - destruct tail as [|c tail]; step; [|subst c; change (10 =? 10) with true; cbv iota]; exists r0; unfold ret; auto.
  - step. inversion Hb as [|? ? Hc Hb']; subst. assert (E : (c =? 10) = false) by lia. rewrite E.
    destruct (IH f r0 tail ltac:(cbn in Hf; lia) Hb' Ht Ha0) as (r1 & E1 & Ha1 & Hk1).
    exists r1. repeat split; auto; congruence.
Qed.

Lemma ws_skip t : trivia t -> forall fuel r l, (length t < fuel)%nat -> at_bytes r (t ++ l) ->
  exists f r', (fuel <= length t + f)%nat /\ Parser.parse_whitespace fuel r = Parser.parse_whitespace f r' /\
               at_bytes r' l /\ rk r' = rk r.
Proof.
  induction 1 as [|c t Hc Ht IH|body t Hb Ht IH]; intros fuel r l Hf Ha.
  - exists fuel, r. auto.
  - destruct fuel as [|f]; [cbn in Hf; lia|]. cbn [Parser.parse_whitespace app] in *. step.
    destruct (c =? 59) eqn:E59; [apply N.eqb_eq in E59; subst c; discriminate Hc|].
    unfold is_ws in Hc. rewrite Hc. step.
    destruct (IH f r1 l ltac:(cbn in Hf; lia) Ha1) as (f' & r2 & Hf' & E2 & Ha2 & Hk2).
    exists f', r2. cbn [length]. repeat split; auto; try lia; congruence.
  - destruct fuel as [|f]; [cbn in Hf; lia|]. cbn [Parser.parse_whitespace app] in *. step.
    change (59 =? 59) with true. cbv iota. cbn [length] in Hf. rewrite app_length in Hf. cbn [length] in Hf.
    rewrite <- app_assoc in Ha0.
    destruct (skip_comment_spec (59 :: body) f r0 (10 :: t ++ l) ltac:(cbn [length]; lia)
                ltac:(constructor; [discriminate|exact Hb]) eq_refl Ha0) as (r1 & E1 & Ha1 & Hk1).
    rewrite (bind_ok _ _ _ _ _ E1).
    destruct (IH f r1 l ltac:(lia) Ha1) as (f' & r2 & Hf' & E2 & Ha2 & Hk2).
    exists f', r2. cbn [length]. rewrite app_length. cbn [length]. repeat split; auto; try lia; congruence.
Qed.

Lemma ws_trivia t : trivia t -> forall fuel r b l, (length t < fuel)%nat -> at_bytes r (t ++ b :: l) -> starts_datum b ->
  exists r', Parser.parse_whitespace fuel r = (Ok (Some b), r') /\ at_bytes r' (b :: l) /\ peeked r' /\ rk r' = rk r.
Proof.
  intros Ht fuel r b l Hf Ha Hs. destruct (ws_skip t Ht fuel r (b :: l) Hf Ha) as (f & r1 & Hf' & E & Ha1 & Hk1).
  destruct (ws_here f r1 b l ltac:(lia) Ha1 Hs) as (r2 & E2 & Ha2 & Hp2 & Hk2).
  exists r2. rewrite E. repeat split; auto; congruence.
Qed.

Lemma trivia_app t1 t2 : trivia t1 -> trivia t2 -> trivia (t1 ++ t2).
Proof.
  induction 1 as [|c t Hc Ht IH|body t Hb Ht IH]; intros H2.
  - exact H2.
  - cbn [app]. apply tv_ws; [exact Hc|exact (IH H2)].
  - change ((59 :: body ++ 10 :: t) ++ t2) with (59 :: (body ++ 10 :: t) ++ t2).
    rewrite <- app_assoc. cbn [app]. apply tv_comment; [exact Hb|exact (IH H2)].
Qed.

Lemma ws_trivia_eof t : trivia t -> forall fuel r, (length t < fuel)%nat -> at_bytes r t ->
  exists r', Parser.parse_whitespace fuel r = (Ok None, r') /\ at_bytes r' [] /\ rk r' = rk r.
Proof.
  intros Ht fuel r Hf Ha. rewrite <- (app_nil_r t) in Ha.
  destruct (ws_skip t Ht fuel r [] Hf Ha) as (f & r1 & Hf' & E & Ha1 & Hk1).
  destruct f as [|f]; [lia|]. rewrite E. cbn [Parser.parse_whitespace]. step.
  exists r0. unfold ret. repeat split; auto; congruence.
Qed.

Lemma ws_trivia_open t : trivia t -> forall (body : bytes) fuel r, Forall (fun c => c <> 10) body ->
  (S (length (t ++ 59%N :: body)) < fuel)%nat -> at_bytes r (t ++ 59 :: body) ->
  exists r', Parser.parse_whitespace fuel r = (Ok None, r') /\ at_bytes r' [] /\ rk r' = rk r.
Proof.
  intros Ht body fuel r Hbody Hf Ha. rewrite app_length in Hf. cbn [length] in Hf.
  destruct (ws_skip t Ht fuel r (59 :: body) ltac:(lia) Ha) as (f & r1 & Hf' & E & Ha1 & Hk1).
  destruct f as [|f]; [lia|]. rewrite E. cbn [Parser.parse_whitespace]. step.
  change (59 =? 59) with true. cbv iota.
  rewrite <- (app_nil_r body) in Ha0.
  destruct (skip_comment_spec (59 :: body) f r0 [] ltac:(cbn [length]; lia)
              ltac:(constructor; [discriminate|exact Hbody]) I Ha0) as (r2 & E2 & Ha2 & Hk2).
  rewrite (bind_ok _ _ _ _ _ E2). exists r2. unfold ret. repeat split; auto; congruence.
Qed.

Lemma ws_trivia_end t : trivia_eof t -> forall fuel r, (S (length t) < fuel)%nat -> at_bytes r t ->
  exists r', Parser.parse_whitespace fuel r = (Ok None, r') /\ at_bytes r' [] /\ rk r' = rk r.
Proof.
  intros [t' Ht|t' body Ht Hb] fuel r Hf Ha.
  - apply (ws_trivia_eof t' Ht); auto. lia.
  - apply (ws_trivia_open t' Ht body); auto.
Qed.

Lemma trivia_head_ws t : trivia t -> t <> [] -> exists c t', t = c :: t' /\ (is_ws c = true \/ c = 59).
Proof. intros [|c t' Hc _|body t' _ _] Hne; [contradiction|exists c, t'; auto|eexists _, _; split; [reflexivity|auto]]. Qed.

(* a decision procedure for trivia, for examples *)
Fixpoint is_trivia_b (in_comment : bool) (t : bytes) : bool :=
  match t with
  | [] => negb in_comment
  | c :: t' => if in_comment then is_trivia_b (negb (c =? 10)) t'
               else if c =? 59 then is_trivia_b true t' else is_ws c && is_trivia_b false t'
  end.
Lemma is_trivia_b_sound t :
  (is_trivia_b false t = true -> trivia t) /\
  (is_trivia_b true t = true -> exists body t', t = body ++ 10 :: t' /\ Forall (fun c => c <> 10) body /\ trivia t').
Proof.
  induction t as [|c t [IH1 IH2]]; cbn [is_trivia_b]; split; intros H; try discriminate.
  - constructor.
  - destruct (c =? 59) eqn:E.
    + apply N.eqb_eq in E. subst c. destruct (IH2 H) as (body & t' & -> & Hb & Ht). constructor; assumption.
    + apply andb_true_iff in H. destruct H as [Hc H]. constructor; auto.
  - destruct (c =? 10) eqn:E; cbn [negb] in H.
    + apply N.eqb_eq in E. subst c. exists [], t. repeat split; auto.
    + destruct (IH2 H) as (body & t' & -> & Hb & Ht). exists (c :: body), t'. repeat split; auto.
      constructor; [lia|exact Hb].
Qed.
Lemma is_trivia_ok t : is_trivia_b false t = true -> trivia t.
Proof. apply is_trivia_b_sound. Qed.

Lemma expect_ident_ok ident : forall r rest, at_bytes r (ident ++ rest) ->
  exists r', Parser.expect_ident ident r = (Ok tt, r') /\ at_bytes r' rest /\ rk r' = rk r.
Proof.
  induction ident as [|c ident IH]; intros r rest Ha; cbn [expect_ident app] in *.
  - exists r. unfold ret. auto.
  - step. rewrite N.eqb_refl. destruct (IH r0 rest Ha0) as (r1 & E & Ha1 & Hk1).
    exists r1. rewrite E. repeat split; auto; congruence.
Qed.

(* what may follow a datum: end of input, whitespace (space, LF, tab, CR, FF), a
   ';' comment, or an opening or closing parenthesis or bracket *)
Definition delim_ok (rest : bytes) : Prop :=
  match rest with [] => True | d :: _ => is_symbol_terminator d = true end.
Lemma delim_ok_cases d rest : delim_ok (d :: rest) ->
  d = 32 \/ d = 10 \/ d = 9 \/ d = 13 \/ d = 12 \/ d = 41 \/ d = 93 \/ d = 40 \/ d = 91 \/ d = 59.
Proof.
  cbn [delim_ok]. unfold is_symbol_terminator, memb. cbn [existsb]. intros H.
  repeat (apply orb_true_iff in H; destruct H as [H|H]; [apply N.eqb_eq in H; subst; tauto|]). discriminate.
Qed.
Ltac delim_cases H :=
  let H' := fresh in pose proof (delim_ok_cases _ _ H) as H';
  destruct H' as [->|[->|[->|[->|[->|[->|[->|[->|[->| ->]]]]]]]]].

Lemma trivia_delim t d rest : trivia t -> delim_ok (d :: rest) -> delim_ok (t ++ d :: rest).
Proof.
  intros Ht Hd. destruct t as [|c t']; [exact Hd|].
  destruct (trivia_head_ws (c :: t') Ht ltac:(discriminate)) as (c0 & t0 & E & Hc). inversion E; subst c0 t0.
  cbn [app delim_ok]. destruct Hc as [Hc| ->]; [|reflexivity].
  unfold is_ws, memb in Hc. cbn [existsb] in Hc. unfold is_symbol_terminator, memb. cbn [existsb].
  repeat (apply orb_true_iff in Hc; destruct Hc as [Hc|Hc]; [apply N.eqb_eq in Hc; subst c; reflexivity|]). discriminate.
Qed.

Section AnyOptions.
  Variable ro : parse_options.
  Variable alpha : N -> bool.
  Variable fast : bool.
  Variable std_parse : N -> Z -> f64.
  Local Notation parse_token := (parse_token ro alpha fast std_parse).

  Lemma tok_listopen_any fuel r rest : at_bytes r (40 :: rest) -> peeked r ->
    exists r', parse_token fuel 40 r = (Ok (TListOpen 41), r') /\ at_bytes r' rest /\ rk r' = rk r.
  Proof.
    intros Ha Hp. change (parse_token fuel 40) with (eat_char ;;; ret (TListOpen 41)).
    step. exists r0. unfold ret. auto.
  Qed.

  Definition sym_arm (fuel : nat) : M token := name <- parse_symbol fuel ;; ret (symbol_token ro name).

  Lemma token_alpha fuel c : is_ascii_alpha c = true -> parse_token fuel c = sym_arm fuel.
  Proof.
    intros H. unfold is_ascii_alpha, is_ascii_lower, is_ascii_upper, in_range in H.
    unfold Parser.parse_token.
    replace (c =? 35) with false by lia. replace ((c =? 45) || (c =? 43)) with false by lia.
    replace (is_digit c) with false by (unfold is_digit, in_range; lia).
    replace (c =? 34) with false by lia. replace (c =? 40) with false by lia.
    replace (c =? 91) with false by lia. replace (c =? 58) with false by lia.
    replace (is_ascii_alpha c) with true by (unfold is_ascii_alpha, is_ascii_lower, is_ascii_upper, in_range; lia).
    reflexivity.
  Qed.

  Lemma tok_sym_arm fuel r c s' rest : parse_token fuel c = sym_arm fuel ->
    (length (c :: s') < fuel)%nat -> no_terminator (c :: s') -> at_terminator rest -> symbol_ok (c :: s') ->
    at_bytes r ((c :: s') ++ rest) ->
    exists r', parse_token fuel c r = (Ok (symbol_token ro (c :: s')), r') /\ at_bytes r' rest /\ rk r' = rk r.
  Proof.
    intros -> Hf Hn Ht Hok Ha.
    destruct (parse_symbol_spec (c :: s') fuel [] rest r Hf Hn Ht Ha Hok) as (r2 & E & Ha2 & Hk2 & _).
    unfold sym_arm, parse_symbol. rewrite (bind_ok _ _ _ _ _ E). exists r2. unfold ret. auto.
  Qed.

  Definition sign_next_ok (c2 : N) : bool :=
    (c2 =? 0) || is_delimiter c2 || is_sign_subsequent c2 || (c2 =? 46) || (127 <? c2).

  Definition sign_arm (fuel : nat) (c : N) : M token :=
    eat_char ;;;
    nx <- peek_or_null ;;
    if sign_next_ok nx then
      name <- parse_symbol_suffix fuel [c] ;; ret (symbol_token ro name)
    else n <- parse_num_token fast std_parse fuel 10 (c =? 43) ;; ret (TNumber n).
  Lemma token_sign_any fuel c : c = 43 \/ c = 45 -> parse_token fuel c = sign_arm fuel c.
  Proof. intros [->| ->]; reflexivity. Qed.

  Lemma tok_symbol_sign_any fuel r c s' rest : c = 43 \/ c = 45 ->
    (match s' with [] => True | c2 :: _ => sign_next_ok c2 = true end) ->
    (length (c :: s') < fuel)%nat -> no_terminator (c :: s') -> delim_ok rest -> symbol_ok (c :: s') ->
    at_bytes r ((c :: s') ++ rest) -> peeked r ->
    exists r', parse_token fuel c r = (Ok (symbol_token ro (c :: s')), r') /\ at_bytes r' rest /\ rk r' = rk r.
  Proof.
    intros Hc Hnext Hf Hn Hd Hok Ha Hp. rewrite (token_sign_any fuel c Hc). unfold sign_arm.
    cbn [app] in Ha. step.
    assert (Hn' : no_terminator s') by (inversion Hn; assumption).
    assert (Hf' : (length s' < fuel)%nat) by (cbn in Hf; lia).
    assert (Hbranch : exists r1, peek_or_null r0 = (Ok (match s' ++ rest with [] => 0 | b :: _ => b end), r1) /\
                                 at_bytes r1 (s' ++ rest) /\ rk r1 = rk r0).
    { destruct (s' ++ rest) as [|b l] eqn:El.
      - destruct (m_peek_or_null_nil r0 Ha0) as (r1 & E & Ha1 & Hk1). exists r1. auto.
      - destruct (m_peek_or_null_cons r0 b l Ha0) as (r1 & E & Ha1 & _ & Hk1). exists r1. auto. }
    destruct Hbranch as (r1 & E1 & Ha1 & Hk1). rewrite (bind_ok _ _ _ _ _ E1).
    assert (Hcond : sign_next_ok (match s' ++ rest with [] => 0 | b :: _ => b end) = true).
    { destruct s' as [|c2 s'']; cbn [app].
      - destruct rest as [|d rest']; [reflexivity|]. delim_cases Hd; reflexivity.
      - exact Hnext. }
    rewrite Hcond.
    unfold parse_symbol_suffix.
    destruct (parse_symbol_spec s' fuel [c] rest r1 Hf' Hn' Hd Ha1 Hok) as (r2 & E2 & Ha2 & Hk2 & _).
    rewrite (bind_ok _ _ _ _ _ E2). exists r2. unfold ret. cbn [app]. repeat split; auto; congruence.
  Qed.
End AnyOptions.

Section Tokens.
  Variable alpha : N -> bool.
  Variable fast : bool.
  Variable std_parse : N -> Z -> f64.
  Local Notation ro := default_ro.
  Local Notation parse_token := (parse_token ro alpha fast std_parse).

  Definition hash_arm (fuel : nat) : M token :=
    eat_char ;;;
    o <- next_char ;;
    match o with
    | None => peek_error EofWhileParsingValue
    | Some c =>
        if c =? 116 then ret (TBool true)
        else if c =? 102 then ret (TBool false)
        else if c =? 110 then expect_ident (s2b "il") ;;; ret TNil
        else if c =? 40 then ret (TVecOpen 41)
        else if (c =? 58) && ro_kw_octo ro then s <- parse_symbol fuel ;; ret (TKeyword s)
        else if c =? 118 then expect_ident (s2b "u8") ;;; ret (TByteVecOpen 41)
        else if c =? 117 then expect_ident (s2b "8") ;;; ret (TByteVecOpen 41)
        else if c =? 98 then n <- parse_radix_literal fast std_parse fuel 2 ;; ret (TNumber n)
        else if c =? 111 then n <- parse_radix_literal fast std_parse fuel 8 ;; ret (TNumber n)
        else if c =? 100 then n <- parse_radix_literal fast std_parse fuel 10 ;; ret (TNumber n)
        else if c =? 120 then n <- parse_radix_literal fast std_parse fuel 16 ;; ret (TNumber n)
        else if c =? 92 then ch <- parse_r6rs_char fuel ;; ret (TChar ch)
        else if (c =? 37) && ro_racket ro then s <- parse_symbol_suffix fuel (s2b "#%") ;; ret (TSymbol s)
        else peek_error ExpectedSomeIdent
    end.
  Lemma token_hash fuel : parse_token fuel 35 = hash_arm fuel.
  Proof. reflexivity. Qed.

  (* after '#', the comparisons of the next byte with literals are evaluated *)
  Ltac hash_step := rewrite token_hash; unfold hash_arm; step; step; cbn [N.eqb Pos.eqb andb].

  Lemma tok_nil fuel r rest : at_bytes r (s2b "#nil" ++ rest) -> peeked r ->
    exists r', parse_token fuel 35 r = (Ok TNil, r') /\ at_bytes r' rest /\ rk r' = rk r.
  Proof.
    intros Ha Hp. change (s2b "#nil" ++ rest) with (35 :: 110 :: s2b "il" ++ rest) in Ha. hash_step.
    destruct (expect_ident_ok (s2b "il") r1 rest Ha1) as (r2 & E & Ha2 & Hk2).
    rewrite (bind_ok _ _ _ _ _ E). exists r2. unfold ret. repeat split; auto; congruence.
  Qed.

  Lemma tok_bool fuel r (b : bool) rest : at_bytes r ((if b then s2b "#t" else s2b "#f") ++ rest) -> peeked r ->
    exists r', parse_token fuel 35 r = (Ok (TBool b), r') /\ at_bytes r' rest /\ rk r' = rk r.
  Proof.
    intros Ha Hp. destruct b; [change (s2b "#t" ++ rest) with (35 :: 116 :: rest) in Ha
                              |change (s2b "#f" ++ rest) with (35 :: 102 :: rest) in Ha];
      hash_step; exists r1; unfold ret; repeat split; auto; congruence.
  Qed.

  Lemma tok_vecopen fuel r rest : at_bytes r (s2b "#(" ++ rest) -> peeked r ->
    exists r', parse_token fuel 35 r = (Ok (TVecOpen 41), r') /\ at_bytes r' rest /\ rk r' = rk r.
  Proof.
    intros Ha Hp. change (s2b "#(" ++ rest) with (35 :: 40 :: rest) in Ha. hash_step.
    exists r1. unfold ret. repeat split; auto; congruence.
  Qed.

  Lemma tok_bytevec fuel r rest : at_bytes r (s2b "#u8" ++ rest) -> peeked r ->
    exists r', parse_token fuel 35 r = (Ok (TByteVecOpen 41), r') /\ at_bytes r' rest /\ rk r' = rk r.
  Proof.
    intros Ha Hp. change (s2b "#u8" ++ rest) with (35 :: 117 :: s2b "8" ++ rest) in Ha. hash_step.
    destruct (expect_ident_ok (s2b "8") r1 rest Ha1) as (r2 & E & Ha2 & Hk2).
    rewrite (bind_ok _ _ _ _ _ E). exists r2. unfold ret. repeat split; auto; congruence.
  Qed.

  Lemma tok_keyword fuel r name rest : (length name < fuel)%nat ->
    no_terminator name -> at_terminator rest -> symbol_ok name ->
    at_bytes r (s2b "#:" ++ name ++ rest) -> peeked r ->
    exists r', parse_token fuel 35 r = (Ok (TKeyword name), r') /\ at_bytes r' rest /\ rk r' = rk r.
  Proof.
    intros Hf Hn Ht Hok Ha Hp. change (s2b "#:" ++ name ++ rest) with (35 :: 58 :: name ++ rest) in Ha. hash_step.
    cbn [ro_kw_octo default_ro]. unfold parse_symbol.
    destruct (parse_symbol_spec name fuel [] rest r1 Hf Hn Ht Ha1 Hok) as (r2 & E & Ha2 & Hk2 & _).
    rewrite (bind_ok _ _ _ _ _ E). exists r2. unfold ret. cbn [app]. repeat split; auto; congruence.
  Qed.

  Lemma tok_listopen fuel r rest : at_bytes r (40 :: rest) -> peeked r ->
    exists r', parse_token fuel 40 r = (Ok (TListOpen 41), r') /\ at_bytes r' rest /\ rk r' = rk r.
  Proof. exact (tok_listopen_any ro alpha fast std_parse fuel r rest). Qed.

  Lemma symbol_token_default name : symbol_token ro name = TSymbol name.
  Proof. reflexivity. Qed.

  Definition ext_initial : bytes := s2b "!$%&*./<=>?@^_~".
  Lemma token_ext fuel c : In c ext_initial -> parse_token fuel c = sym_arm ro fuel.
  Proof.
    intros H. unfold ext_initial in H. cbn in H.
    repeat (destruct H as [<-|H]; [reflexivity|]). contradiction.
  Qed.

  Lemma tok_symbol_direct fuel r c s' rest :
    (is_ascii_alpha c = true \/ In c ext_initial \/ c = 58) ->
    (length (c :: s') < fuel)%nat -> no_terminator (c :: s') -> at_terminator rest -> symbol_ok (c :: s') ->
    at_bytes r ((c :: s') ++ rest) ->
    exists r', parse_token fuel c r = (Ok (TSymbol (c :: s')), r') /\ at_bytes r' rest /\ rk r' = rk r.
  Proof.
    intros Hc. apply (tok_sym_arm ro alpha fast std_parse fuel r c s' rest).
    destruct Hc as [Hc|[Hc| ->]]; [exact (token_alpha ro alpha fast std_parse fuel c Hc)|exact (token_ext fuel c Hc)|reflexivity].
  Qed.

  Lemma token_sign fuel c : c = 43 \/ c = 45 -> parse_token fuel c = sign_arm ro fast std_parse fuel c.
  Proof. exact (token_sign_any ro alpha fast std_parse fuel c). Qed.

  Lemma tok_symbol_sign fuel r c s' rest : c = 43 \/ c = 45 ->
    (match s' with [] => True | c2 :: _ => sign_next_ok c2 = true end) ->
    (length (c :: s') < fuel)%nat -> no_terminator (c :: s') -> delim_ok rest -> symbol_ok (c :: s') ->
    at_bytes r ((c :: s') ++ rest) -> peeked r ->
    exists r', parse_token fuel c r = (Ok (TSymbol (c :: s')), r') /\ at_bytes r' rest /\ rk r' = rk r.
  Proof. exact (tok_symbol_sign_any ro alpha fast std_parse fuel r c s' rest). Qed.

  Definition high_arm (fuel : nat) (b0 : N) : M token :=
    eat_char ;;;
    r <- decode_utf8_sequence_b b0 ;;
    if negb (alpha (snd r)) then peek_error ExpectedSomeValue
    else name <- parse_symbol_suffix fuel (fst r) ;; ret (symbol_token ro name).

  Lemma token_high fuel b0 : 127 < b0 -> parse_token fuel b0 = high_arm fuel b0.
  Proof.
    intros H. unfold Parser.parse_token.
    replace (b0 =? 35) with false by lia. replace ((b0 =? 45) || (b0 =? 43)) with false by lia.
    replace (is_digit b0) with false by (unfold is_digit, in_range; lia).
    replace (b0 =? 34) with false by lia. replace (b0 =? 40) with false by lia.
    replace (b0 =? 91) with false by lia. replace (b0 =? 58) with false by lia.
    replace (is_ascii_alpha b0) with false by (unfold is_ascii_alpha, is_ascii_lower, is_ascii_upper, in_range; lia).
    replace (b0 =? 63) with false by lia. cbn [andb].
    replace (b0 =? 39) with false by lia. replace (b0 =? 96) with false by lia. replace (b0 =? 44) with false by lia.
    replace (127 <? b0) with true by lia. reflexivity.
  Qed.

  Definition cont_len (b0 : N) : nat := if in_range 192 223 b0 then 1%nat else N.to_nat ((b0 - 192) / 16).
  Definition lead_ok (b0 : N) : bool := in_range 192 223 b0 || in_range 224 247 b0.

  Lemma take_bytes_spec l : forall acc r tail, at_bytes r (l ++ tail) ->
    exists r', take_bytes (length l) acc r = (Ok (acc ++ l), r') /\ at_bytes r' tail /\ rk r' = rk r.
  Proof.
    induction l as [|c l IH]; intros acc r tail Ha; cbn [length take_bytes app] in *.
    - exists r. unfold ret. rewrite app_nil_r. auto.
    - step. destruct (IH (acc ++ [c]) r0 tail Ha0) as (r1 & E & Ha1 & Hk1).
      exists r1. rewrite E, <- app_assoc. repeat split; auto; congruence.
  Qed.

  Lemma tok_symbol_nonascii fuel r b0 conts s' rest :
    127 < b0 -> lead_ok b0 = true -> length conts = cont_len b0 -> utf8_valid (b0 :: conts) = true ->
    alpha (utf8_decode_head (b0 :: conts)) = true ->
    (length s' < fuel)%nat -> no_terminator s' -> at_terminator rest -> symbol_ok ((b0 :: conts) ++ s') ->
    at_bytes r ((b0 :: conts) ++ s' ++ rest) -> peeked r ->
    exists r', parse_token fuel b0 r = (Ok (TSymbol ((b0 :: conts) ++ s')), r') /\ at_bytes r' rest /\ rk r' = rk r.
  Proof.
    intros Hhi Hlead Hlen Hv Hal Hf Hn Ht Hok Ha Hp. rewrite (token_high fuel b0 Hhi). unfold high_arm.
    cbn [app] in Ha. step.
    assert (Ed : exists r1, decode_utf8_sequence_b b0 r0 = (Ok (b0 :: conts, utf8_decode_head (b0 :: conts)), r1) /\
                            at_bytes r1 (s' ++ rest) /\ rk r1 = rk r0).
    { unfold decode_utf8_sequence_b. unfold lead_ok in Hlead. rewrite Hlead. cbv zeta.
      fold (cont_len b0). rewrite <- Hlen.
      destruct (take_bytes_spec conts [b0] r0 (s' ++ rest) Ha0) as (r1 & E1 & Ha1 & Hk1).
      rewrite (bind_ok _ _ _ _ _ E1). cbn [app]. rewrite Hv. exists r1. unfold ret. auto. }
    destruct Ed as (r1 & E1 & Ha1 & Hk1). rewrite (bind_ok _ _ _ _ _ E1). cbn [fst snd]. rewrite Hal. cbn [negb].
    unfold parse_symbol_suffix.
    destruct (parse_symbol_spec s' fuel (b0 :: conts) rest r1 Hf Hn Ht Ha1 Hok) as (r2 & E2 & Ha2 & Hk2 & _).
    rewrite (bind_ok _ _ _ _ _ E2). exists r2. unfold ret. repeat split; auto; congruence.
  Qed.

End Tokens.
