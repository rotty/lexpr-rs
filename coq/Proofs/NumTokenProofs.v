(* Decimal integer tokens read back as the integer they print. *)
From Coq Require Import SpecFloat ZifyBool ZifyNat ZifyN.
Require Import Base Value Float PrintOptions ParseOptions Utf8 Reader Scan Num NumberOps Parser.
Require Import Printer ReaderProofs TokenProofs.
Ltac Zify.zify_post_hook ::= Z.div_mod_to_equations.

Definition dfold (acc : N) (ds : bytes) : N := fold_left (fun a c => a * 10 + (c - 48)) ds acc.
Definition all_digits (ds : bytes) : Prop := Forall (fun c => is_digit c = true) ds.

Lemma dfold_app acc a b : dfold acc (a ++ b) = dfold (dfold acc a) b.
Proof. unfold dfold. apply fold_left_app. Qed.

Lemma digits_value_ge R (val : N -> N) ds : 0 < R -> forall acc, acc <= fold_left (fun a c => a * R + val c) ds acc.
Proof.
  intros HR. induction ds as [|d ds IH]; intros acc; cbn [fold_left]; [lia|].
  specialize (IH (acc * R + val d)). nia.
Qed.

Lemma dfold_ge ds : forall acc, acc <= dfold acc ds.
Proof. exact (digits_value_ge 10 (fun c => c - 48) ds eq_refl). Qed.

Lemma pos_size_nat_N p : N.of_nat (Pos.size_nat p) = Npos (Pos.size p).
Proof. induction p as [p IH|p IH|]; cbn [Pos.size_nat Pos.size]; try rewrite Nat2N.inj_succ, IH; try reflexivity; lia. Qed.

Lemma size_nat_bound n : n < 2 ^ N.of_nat (N.size_nat n).
Proof.
  destruct n as [|p]; [reflexivity|]. cbn [N.size_nat]. rewrite pos_size_nat_N.
  apply (N.size_gt (Npos p)).
Qed.

Lemma dec_digits_spec fuel : forall n acc, n < 2 ^ N.of_nat fuel ->
  exists ds, dec_digits_fuel (S fuel) n acc = ds ++ acc /\ ds <> [] /\ all_digits ds /\ dfold 0 ds = n /\
             (forall d ds', ds = d :: ds' -> ds' <> [] -> d <> 48).
Proof.
  induction fuel as [|f IH]; intros n acc Hn.
  - assert (n = 0) by (change (2 ^ N.of_nat 0) with 1 in Hn; lia). subst n. exists [48]. cbn. repeat split; try discriminate.
    + repeat constructor.
    + intros d ds' E Hne. inversion E; subst. contradiction.
  - cbn [dec_digits_fuel]. destruct (n <? 10) eqn:E10.
    + exists [48 + n mod 10]. repeat split; try discriminate.
      * constructor; [|constructor]. unfold is_digit, in_range. lia.
      * unfold dfold; cbn [fold_left]; lia.
      * intros d ds' E Hne. inversion E; subst. contradiction.
    + assert (Hq : n / 10 < 2 ^ N.of_nat f).
      { rewrite Nat2N.inj_succ, N.pow_succ_r' in Hn. lia. }
      destruct (IH (n / 10) ((48 + n mod 10) :: acc) Hq) as (ds & E & Hne & Hd & Hv & Hlz).
      exists (ds ++ [48 + n mod 10]). rewrite <- app_assoc. cbn [app]. repeat split.
      * exact E.
      * destruct ds; discriminate.
      * apply Forall_app. split; [exact Hd|]. constructor; [|constructor]. unfold is_digit, in_range. lia.
      * rewrite dfold_app, Hv. unfold dfold; cbn [fold_left]. lia.
      * intros d ds' E' Hne' Hd48. subst d. destruct ds as [|d0 ds0]; [contradiction|]. cbn [app] in E'. assert (E1 : d0 = 48) by congruence. subst d0.
        destruct ds0 as [|d1 ds1].
        -- unfold dfold in Hv; cbn [fold_left] in Hv. lia.
        -- apply (Hlz 48 (d1 :: ds1) eq_refl); [discriminate|reflexivity].
Qed.

Lemma dec_of_N_spec n :
  exists ds, dec_of_N n = ds /\ ds <> [] /\ all_digits ds /\ dfold 0 ds = n /\
             (forall d ds', ds = d :: ds' -> ds' <> [] -> d <> 48).
Proof.
  unfold dec_of_N. destruct (dec_digits_spec (N.size_nat n) n [] (size_nat_bound n)) as (ds & E & H).
  exists ds. rewrite E, app_nil_r. auto.
Qed.

Lemma overflow_N_false a R b c : 0 < R -> a * R + b <= c -> overflow_N a R b c = false.
Proof.
  intros HR H. unfold overflow_N. pose proof (N.div_mod c R ltac:(lia)) as E. pose proof (N.mod_lt c R ltac:(lia)) as Hm.
  destruct (c / R <=? a) eqn:E1; [|reflexivity]. destruct (c / R <? a) eqn:E2; cbn [andb orb]; nia.
Qed.

Lemma digit_val_digit letters c : is_digit c = true -> digit_val letters c = Some (c - 48).
Proof. unfold is_digit, digit_val. intros ->. reflexivity. Qed.

Lemma digit_val_nondigit c : is_digit c = false -> digit_val false c = None.
Proof. unfold digit_val, is_digit. intros ->. reflexivity. Qed.

Lemma digit_val_true_of l c v : digit_val l c = Some v -> digit_val true c = Some v.
Proof.
  unfold digit_val. destruct (in_range 48 57 c); [auto|]. destruct l; [auto|cbn; discriminate].
Qed.

Definition head0 (l : bytes) : N := match l with [] => 0 | b :: _ => b end.

Lemma peek0_at r rest : at_bytes r rest ->
  exists r', peek_or_null r = (Ok (head0 rest), r') /\ at_bytes r' rest /\ rk r' = rk r /\ (rest <> [] -> peeked r').
Proof.
  intros Ha. destruct rest as [|b l].
  - destruct (m_peek_or_null_nil r Ha) as (r' & E & Ha' & Hk). exists r'. repeat split; auto. intros H; contradiction.
  - destruct (m_peek_or_null_cons r b l Ha) as (r' & E & Ha' & Hp & Hk). exists r'. repeat split; auto.
Qed.

Lemma delim_head rest : delim_ok rest ->
  is_digit (head0 rest) = false /\ (forall l, digit_val l (head0 rest) = None) /\
  (head0 rest =? 46) = false /\ ((head0 rest =? 101) || (head0 rest =? 69)) = false.
Proof.
  destruct rest as [|b rest]; cbn [head0]; intros H; [|delim_cases H];
    (split; [reflexivity|split; [intros [|]; reflexivity|split; reflexivity]]).
Qed.

Lemma all_digits_val ds : all_digits ds ->
  Forall (fun c => digit_val (10 <? 10) c = Some (c - 48) /\ c - 48 < 10) ds.
Proof.
  apply Forall_impl. intros c H. split; [exact (digit_val_digit false c H)|]. unfold is_digit, in_range in H. lia.
Qed.

Section NumLit.
  Variable fast : bool.
  Variable std_parse : N -> Z -> f64.

  Definition int_result (pos : bool) (n : N) : number :=
    if pos then PosInt n
    else if 9223372036854775808 <? n then Float (f64_neg (f64_of_N n))
    else num_from_signed (- Z.of_N n).

  Lemma num_tail_delim fuel r R pos n rest : delim_ok rest -> at_bytes r rest ->
    exists r', parse_num_tail fast std_parse fuel R pos n r = (Ok (int_result pos n), r') /\
               at_bytes r' rest /\ rk r' = rk r.
  Proof.
    intros Hd Ha. unfold parse_num_tail. destruct (delim_head rest Hd) as (_ & _ & E1 & E2).
    destruct (peek0_at r rest Ha) as (r0 & E0 & Ha0 & Hk0 & _). rewrite (bind_ok _ _ _ _ _ E0), E1, E2.
    exists r0. unfold int_result, ret. destruct pos; [|destruct (9223372036854775808 <? n)]; auto.
  Qed.

  Lemma num_token_of_literal fuel R pos r n r1 rest :
    parse_num_literal fast std_parse fuel R pos r = (Ok n, r1) -> at_bytes r1 rest -> delim_ok rest ->
    exists r', parse_num_token fast std_parse fuel R pos r = (Ok n, r') /\ at_bytes r' rest /\ rk r' = rk r1.
  Proof.
    intros E Ha Hr. unfold parse_num_token. rewrite (bind_ok _ _ _ _ _ E). destruct rest as [|b rest].
    - step. exists r0. unfold ret. auto.
    - step. assert (Ed : is_delimiter b = true) by (delim_cases Hr; reflexivity). rewrite Ed.
      exists r0. unfold ret. auto.
  Qed.

  (* The digit loops in radix R, for any reading [val] of the digit bytes;
     [val c = c - 48] gives dfold, the general digit value gives RadixProofs.rfold. *)
  Section Digits.
    Variable R : N.
    Variable val : N -> N.
    Hypothesis HR : 0 < R.
    Let digit (c : N) : Prop := digit_val (10 <? R) c = Some (val c) /\ val c < R.
    Let value (acc : N) (ds : bytes) : N := fold_left (fun a c => a * R + val c) ds acc.

    Lemma num_loop_run ds : forall fuel r pos res rest, (length ds < fuel)%nat -> Forall digit ds ->
      digit_val (10 <? R) (head0 rest) = None -> value res ds <= u64_MAX -> at_bytes r (ds ++ rest) ->
      exists r', num_literal_loop fast std_parse fuel R pos res r =
                 parse_num_tail fast std_parse (fuel - 1 - length ds) R pos (value res ds) r' /\
                 at_bytes r' rest /\ rk r' = rk r.
    Proof using HR.
      induction ds as [|d ds IH]; intros fuel r pos res rest Hf Hd Hr Hmax Ha;
        (destruct fuel as [|f]; [cbn in Hf; lia|]); cbn [num_literal_loop]; cbn [app] in Ha.
      - destruct (peek0_at r rest Ha) as (r0 & E0 & Ha0 & Hk0 & _). rewrite (bind_ok _ _ _ _ _ E0), Hr.
        exists r0. cbn [length value fold_left]. replace (S f - 1 - 0)%nat with f by lia. auto.
      - inversion Hd as [|? ? [Ev Hv] Hd']; subst. step. rewrite Ev.
        replace (R <=? val d) with false by lia. step.
        change (value res (d :: ds)) with (value (res * R + val d) ds) in *.
        pose proof (digits_value_ge R val ds HR (res * R + val d) : _ <= value _ ds) as Hge.
        rewrite overflow_N_false by lia.
        destruct (IH f r1 pos (res * R + val d) rest ltac:(cbn in Hf; lia) Hd' Hr Hmax Ha1) as (r2 & E & Ha2 & Hk2).
        exists r2. rewrite E. cbn [length]. replace (S f - 1 - S (length ds))%nat with (f - 1 - length ds)%nat by lia.
        repeat split; auto; congruence.
    Qed.

    Lemma num_loop_delim ds fuel r pos res rest : (length ds < fuel)%nat -> Forall digit ds -> delim_ok rest ->
      value res ds <= u64_MAX -> at_bytes r (ds ++ rest) ->
      exists r', num_literal_loop fast std_parse fuel R pos res r = (Ok (int_result pos (value res ds)), r') /\
                 at_bytes r' rest /\ rk r' = rk r.
    Proof using HR.
      intros Hf Hd Hr Hmax Ha. destruct (delim_head rest Hr) as (_ & Hn & _).
      destruct (num_loop_run ds fuel r pos res rest Hf Hd (Hn _) Hmax Ha) as (r1 & E1 & Ha1 & Hk1).
      destruct (num_tail_delim (fuel - 1 - length ds) r1 R pos (value res ds) rest Hr Ha1) as (r2 & E2 & Ha2 & Hk2).
      exists r2. rewrite E1. repeat split; auto; congruence.
    Qed.

    Lemma num_literal_first fuel r pos d l : digit d -> at_bytes r (d :: l) ->
      exists r', parse_num_literal fast std_parse fuel R pos r = num_literal_loop fast std_parse fuel R pos (val d) r' /\
                 at_bytes r' l /\ rk r' = rk r.
    Proof using HR.
      intros [Ev Hv] Ha. unfold parse_num_literal. step. rewrite (digit_val_true_of _ d _ Ev).
      replace (R <=? val d) with false by lia. exists r0. auto.
    Qed.

    Lemma num_token_run fuel r pos d ds rest : (length (d :: ds) < fuel)%nat -> Forall digit (d :: ds) ->
      delim_ok rest -> value 0 (d :: ds) <= u64_MAX -> at_bytes r ((d :: ds) ++ rest) ->
      exists r', parse_num_token fast std_parse fuel R pos r = (Ok (int_result pos (value 0 (d :: ds))), r') /\
                 at_bytes r' rest /\ rk r' = rk r.
    Proof using HR.
      intros Hf Hd Hr Hmax Ha. inversion Hd as [|? ? Hdig Hd']; subst.
      change (value 0 (d :: ds)) with (value (0 * R + val d) ds) in *. rewrite N.mul_0_l, N.add_0_l in *.
      destruct (num_literal_first fuel r pos d (ds ++ rest) Hdig Ha) as (r0 & E0 & Ha0 & Hk0).
      destruct (num_loop_delim ds fuel r0 pos (val d) rest ltac:(cbn in Hf; lia) Hd' Hr Hmax Ha0) as (r1 & E1 & Ha1 & Hk1).
      rewrite E1 in E0.
      destruct (num_token_of_literal fuel R pos r _ r1 rest E0 Ha1 Hr) as (r2 & E2 & Ha2 & Hk2).
      exists r2. repeat split; auto; congruence.
    Qed.
  End Digits.

  Lemma num_loop_digits ds : forall fuel r pos res rest, (length ds < fuel)%nat -> all_digits ds -> delim_ok rest ->
    dfold res ds <= u64_MAX -> at_bytes r (ds ++ rest) ->
    exists r', num_literal_loop fast std_parse fuel 10 pos res r = (Ok (int_result pos (dfold res ds)), r') /\
               at_bytes r' rest /\ rk r' = rk r.
  Proof.
    intros fuel r pos res rest Hf Hd.
    exact (num_loop_delim 10 (fun c => c - 48) eq_refl ds fuel r pos res rest Hf (all_digits_val ds Hd)).
  Qed.

  Lemma num_token_digits fuel r pos d ds rest : (length (d :: ds) < fuel)%nat -> all_digits (d :: ds) -> delim_ok rest ->
    dfold 0 (d :: ds) <= u64_MAX -> at_bytes r ((d :: ds) ++ rest) ->
    exists r', parse_num_token fast std_parse fuel 10 pos r = (Ok (int_result pos (dfold 0 (d :: ds))), r') /\
               at_bytes r' rest /\ rk r' = rk r.
  Proof.
    intros Hf Hd.
    exact (num_token_run 10 (fun c => c - 48) eq_refl fuel r pos d ds rest Hf (all_digits_val _ Hd)).
  Qed.

End NumLit.

Lemma digit_not_symbolish d : is_digit d = true -> sign_next_ok d = false.
Proof.
  intros Hdig. unfold sign_next_ok. unfold is_digit, in_range in Hdig.
  destruct (N.eq_dec d 48) as [->|]; [reflexivity|]. destruct (N.eq_dec d 49) as [->|]; [reflexivity|].
  destruct (N.eq_dec d 50) as [->|]; [reflexivity|]. destruct (N.eq_dec d 51) as [->|]; [reflexivity|].
  destruct (N.eq_dec d 52) as [->|]; [reflexivity|]. destruct (N.eq_dec d 53) as [->|]; [reflexivity|].
  destruct (N.eq_dec d 54) as [->|]; [reflexivity|]. destruct (N.eq_dec d 55) as [->|]; [reflexivity|].
  destruct (N.eq_dec d 56) as [->|]; [reflexivity|]. destruct (N.eq_dec d 57) as [->|]; [reflexivity|]. lia.
Qed.

Section NegInt.
  Variable ro : parse_options.
  Variable alpha : N -> bool.
  Variable fast : bool.
  Variable std_parse : N -> Z -> f64.
  Local Notation parse_token := (parse_token ro alpha fast std_parse).

  Theorem tok_negint_any fuel r i rest : (i64_min <= i < 0)%Z -> (S (length (dec_of_N (Z.to_N (- i)))) < fuel)%nat -> delim_ok rest ->
    at_bytes r (dec_of_Z i ++ rest) -> peeked r ->
    exists r', parse_token fuel 45 r = (Ok (TNumber (NegInt i)), r') /\ at_bytes r' rest /\ rk r' = rk r.
  Proof.
    intros Hi Hf Hr Ha Hp. destruct i as [|p|p]; try lia. cbn [dec_of_Z] in Ha.
    change (Z.to_N (- Z.neg p)) with (Npos p) in Hf.
    destruct (dec_of_N_spec (Npos p)) as (ds & E & Hne & Hd & Hv & Hlz). rewrite E in *.
    destruct ds as [|d ds]; [contradiction|]. pose proof (Forall_inv Hd) as Hdig. cbv beta in Hdig.
    rewrite (token_sign_any ro alpha fast std_parse fuel 45 (or_intror eq_refl)). unfold sign_arm. cbn [app] in Ha.
    step. step.
    rewrite (digit_not_symbolish d Hdig). change (45 =? 43) with false.
    assert (Hmax : dfold 0 (d :: ds) <= u64_MAX) by (rewrite Hv; unfold i64_min, u64_MAX in *; lia).
    destruct (num_token_digits fast std_parse fuel r1 false d ds rest ltac:(cbn in *; lia) Hd Hr Hmax Ha1) as (r2 & E2 & Ha2 & Hk2).
    rewrite (bind_ok _ _ _ _ _ E2). exists r2. unfold ret. rewrite Hv. unfold int_result.
    assert (E63 : (9223372036854775808 <? N.pos p) = false) by (unfold i64_min in Hi; lia). rewrite E63.
    repeat split; auto; congruence.
  Qed.
End NegInt.

Section NumTokens.
  Variable alpha : N -> bool.
  Variable fast : bool.
  Variable std_parse : N -> Z -> f64.
  Local Notation ro := default_ro.
  Local Notation parse_token := (parse_token ro alpha fast std_parse).

  Lemma token_digit fuel c : is_digit c = true ->
    parse_token fuel c = (n <- parse_num_token fast std_parse fuel 10 true ;; ret (TNumber n)).
  Proof.
    intros H. unfold Parser.parse_token. pose proof H as H'. unfold is_digit, in_range in H'.
    replace (c =? 35) with false by lia. replace ((c =? 45) || (c =? 43)) with false by lia.
    rewrite H. reflexivity.
  Qed.

  Theorem tok_posint fuel r n rest : n <= u64_MAX -> (length (dec_of_N n) < fuel)%nat -> delim_ok rest ->
    at_bytes r (dec_of_N n ++ rest) ->
    exists c r', hd_error (dec_of_N n ++ rest) = Some c /\
      parse_token fuel c r = (Ok (TNumber (PosInt n)), r') /\ at_bytes r' rest /\ rk r' = rk r.
  Proof.
    intros Hn Hf Hr Ha. destruct (dec_of_N_spec n) as (ds & E & Hne & Hd & Hv & _). rewrite E in *.
    destruct ds as [|d ds]; [contradiction|]. exists d.
    pose proof (Forall_inv Hd) as Hdig. cbv beta in Hdig.
    destruct (num_token_digits fast std_parse fuel r true d ds rest Hf Hd Hr ltac:(rewrite Hv; exact Hn) Ha) as (r1 & E1 & Ha1 & Hk1).
    exists r1. split; [reflexivity|]. rewrite (token_digit fuel d Hdig), (bind_ok _ _ _ _ _ E1), Hv.
    unfold ret, int_result. auto.
  Qed.

  Theorem tok_negint fuel r i rest : (i64_min <= i < 0)%Z -> (S (length (dec_of_N (Z.to_N (- i)))) < fuel)%nat -> delim_ok rest ->
    at_bytes r (dec_of_Z i ++ rest) -> peeked r ->
    exists r', parse_token fuel 45 r = (Ok (TNumber (NegInt i)), r') /\ at_bytes r' rest /\ rk r' = rk r.
  Proof. exact (tok_negint_any ro alpha fast std_parse fuel r i rest). Qed.

  (* any decimal digit string, leading zeros included *)
  Theorem tok_digits fuel r d ds rest : all_digits (d :: ds) -> dfold 0 (d :: ds) <= u64_MAX ->
    (length (d :: ds) < fuel)%nat -> delim_ok rest -> at_bytes r ((d :: ds) ++ rest) ->
    exists r', parse_token fuel d r = (Ok (TNumber (PosInt (dfold 0 (d :: ds)))), r') /\ at_bytes r' rest /\ rk r' = rk r.
  Proof.
    intros Hd Hmax Hf Hr Ha. pose proof (Forall_inv Hd) as Hdig. cbv beta in Hdig.
    destruct (num_token_digits fast std_parse fuel r true d ds rest Hf Hd Hr Hmax Ha) as (r1 & E1 & Ha1 & Hk1).
    exists r1. rewrite (token_digit fuel d Hdig), (bind_ok _ _ _ _ _ E1). unfold ret, int_result. auto.
  Qed.

  (* a sign, then digits: +n is n; -n is the integer -n down to -2^63 *)
  Theorem tok_signed_digits fuel r sg d ds rest : sg = 43 \/ sg = 45 ->
    all_digits (d :: ds) -> dfold 0 (d :: ds) <= u64_MAX ->
    (S (length (d :: ds)) < fuel)%nat -> delim_ok rest -> at_bytes r (sg :: (d :: ds) ++ rest) -> peeked r ->
    exists r', parse_token fuel sg r = (Ok (TNumber (int_result (sg =? 43) (dfold 0 (d :: ds)))), r') /\
               at_bytes r' rest /\ rk r' = rk r.
  Proof.
    intros Hsg Hd Hmax Hf Hr Ha Hp. pose proof (Forall_inv Hd) as Hdig. cbv beta in Hdig.
    rewrite (token_sign alpha fast std_parse fuel sg Hsg). unfold sign_arm. cbn [app] in Ha.
    step. step. rewrite (digit_not_symbolish d Hdig).
    destruct (num_token_digits fast std_parse fuel r1 (sg =? 43) d ds rest ltac:(cbn in *; lia) Hd Hr Hmax Ha1)
      as (r2 & E2 & Ha2 & Hk2).
    rewrite (bind_ok _ _ _ _ _ E2). exists r2. unfold ret. repeat split; auto; congruence.
  Qed.

End NumTokens.

Lemma int_result_neg n : n <= 9223372036854775808 -> int_result false n = num_from_signed (- Z.of_N n).
Proof. intros H. unfold int_result. replace (9223372036854775808 <? n) with false by lia. reflexivity. Qed.

