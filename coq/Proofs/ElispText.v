(* The text the printer emits under Options::elisp(), as a plain recursive function. *)
Require Import Base Value PrintOptions Printer PrinterProofs TextProofs.

Section ElispText.
  Variable ryu : f64 -> bytes.
  Local Notation F := (custom_fmt ryu elisp_po).

  Definition eesc_bytes (b : N) : bytes :=
    match escape_of b with
    | None => [b]
    | Some e => flatten (write_elisp_char_escape e)
    end.
  Definition estr_text (s : bytes) : bytes := [34] ++ flat_map eesc_bytes s ++ [34].

  Definition echar_text (c : N) : bytes :=
    if (32 <=? c) && (c <? 127) then
      (if memb c ELISP_ESCAPE_CHARS then [63; 92; c] else [63; c])
    else [63; 92; 120] ++ hex_of_N c.

  Definition octal_text (o : N) : bytes :=
    [92; octal_digit ((o / 64) mod 8); octal_digit ((o / 8) mod 8); octal_digit (o mod 8)].
  Definition ebytes_text (bs : bytes) : bytes := [34] ++ flat_map octal_text bs ++ [34].

  Definition atom_etext (v : value) : bytes :=
    match v with
    | Nil => s2b "nil"
    | Null => s2b "()"
    | Bool b => if b then s2b "t" else s2b "nil"
    | Number n => number_text ryu n
    | Char c => echar_text c
    | Symbol s => s
    | Keyword s => 58 :: s
    | String s => estr_text s
    | Bytes b => ebytes_text b
    | Cons _ _ | Vector _ => []
    end.

  Fixpoint etxt (v : value) : bytes :=
    match v with
    | Cons a d => [40] ++ etxt a ++ etxt_tail d ++ [41]
    | Vector l =>
        [91] ++ (fix elems (first : bool) (l : list value) : bytes :=
                   match l with
                   | [] => []
                   | x :: l' => (if first then [] else [32]) ++ etxt x ++ elems false l'
                   end) true l ++ [93]
    | _ => atom_etext v
    end
  with etxt_tail (d : value) : bytes :=
    match d with
    | Null => []
    | Cons a d' => [32] ++ etxt a ++ etxt_tail d'
    | Vector l =>
        [32; 46; 32] ++ ([91] ++ (fix elems (first : bool) (l : list value) : bytes :=
                                    match l with
                                    | [] => []
                                    | x :: l' => (if first then [] else [32]) ++ etxt x ++ elems false l'
                                    end) true l ++ [93])
    | _ => [32; 46; 32] ++ atom_etext d
    end.

  Definition evec_elems : bool -> list value -> bytes :=
    fix elems (first : bool) (l : list value) : bytes :=
      match l with
      | [] => []
      | x :: l' => (if first then [] else [32]) ++ etxt x ++ elems false l'
      end.

  Lemma etxt_vector l : etxt (Vector l) = [91] ++ evec_elems true l ++ [93].
  Proof. reflexivity. Qed.
  Lemma etxt_tail_noncons d : is_cons d = false -> is_null d = false -> etxt_tail d = [32; 46; 32] ++ etxt d.
  Proof. destruct d; try discriminate; reflexivity. Qed.
  Lemma etxt_cons a d : etxt (Cons a d) = [40] ++ etxt a ++ etxt_tail d ++ [41].
  Proof. reflexivity. Qed.
  Lemma etxt_tail_cons a d : etxt_tail (Cons a d) = [32] ++ etxt a ++ etxt_tail d.
  Proof. reflexivity. Qed.

  Lemma eflatten_esc frag s :
    flatten (esc_contents F frag s) = rev frag ++ flat_map eesc_bytes s.
  Proof. exact (flatten_esc_any F frag s (fun _ => eq_refl)). Qed.

  Lemma eflatten_octets l : flatten (elisp_octets l) = flat_map octal_text l.
  Proof.
    induction l as [|o l IH]; cbn [elisp_octets flat_map]; [reflexivity|].
    rewrite !flatten_app, !flatten_wall, IH. reflexivity.
  Qed.

  Lemma eflatten_atom v : is_cons v = false -> (forall l, v <> Vector l) ->
    flatten (print_atom F v) = atom_etext v.
  Proof.
    intros Hc Hv.
    destruct v as [| |b|n|c|s|s|s|bs|a d|l]; try discriminate;
      cbn [print_atom custom_fmt write_nil write_null write_bool write_number write_char write_symbol
           write_keyword write_bytes atom_etext elisp_po po_char].
    - unfold c_write_nil. cbn [elisp_po po_nil]. now rewrite flatten_wall.
    - now rewrite flatten_wall.
    - unfold c_write_bool. cbn [elisp_po po_bool]. destruct b; now rewrite flatten_wall.
    - destruct n; cbn [d_write_number number_text]; now rewrite flatten_wall.
    - unfold write_elisp_char, echar_text. destruct (_ && _); [destruct (memb c ELISP_ESCAPE_CHARS)|];
        rewrite ?flatten_app, ?flatten_wall; reflexivity.
    - unfold format_escaped_str, estr_text. cbn [custom_fmt begin_string end_string].
      rewrite !flatten_app, !flatten_wall, eflatten_esc. reflexivity.
    - now rewrite flatten_wall.
    - unfold c_write_keyword. cbn [elisp_po po_keyword]. rewrite flatten_app, !flatten_wall. reflexivity.
    - unfold c_write_bytes, ebytes_text. cbn [elisp_po po_bytes]. rewrite !flatten_app, eflatten_octets, !flatten_wall. reflexivity.
    - exfalso. eapply Hv. reflexivity.
  Qed.

  Lemma eprint_txt_both v :
    flatten (print F v) = etxt v /\ flatten (print_tail F v) = etxt_tail v.
  Proof.
    assert (Htail : forall d, is_cons d = false -> is_null d = false -> (forall l, d <> Vector l) ->
              flatten (print_tail F d) = [32; 46; 32] ++ atom_etext d).
    { intros d Hc Hn Hv. rewrite <- (eflatten_atom d Hc Hv).
      destruct d; try discriminate; try (exfalso; eapply Hv; reflexivity);
        cbn [print_tail]; unfold dot_seq;
        cbn [custom_fmt begin_seq_element write_dot end_seq_element d_begin_seq_element];
        rewrite ?flatten_app, ?flatten_wall, ?flatten_nil, ?app_nil_r; reflexivity. }
    induction v as [| |b|n|c|s|s|s|b|a d [IHa _] [IHd1 IHd2]|l H] using value_ind';
      try (split; [apply eflatten_atom; [reflexivity|intros; discriminate]
                  |first [reflexivity | apply Htail; [reflexivity|reflexivity|intros; discriminate]]]).
    - split; rewrite ?print_cons, ?print_tail_cons, ?etxt_cons, ?etxt_tail_cons;
        cbn [custom_fmt begin_list end_list begin_seq_element end_seq_element d_begin_seq_element];
        rewrite !flatten_app, !flatten_wall, ?flatten_nil, IHa, IHd2; cbn [app]; reflexivity.
    - assert (He : forall first,
                 flatten ((fix elems (first : bool) (l : list value) : trace :=
                             match l with
                             | [] => []
                             | x :: l' => begin_seq_element F first ++ print F x
                                            ++ end_seq_element F ++ elems false l'
                             end) first l) = evec_elems first l).
      { induction H as [|x l [Hx _] _ IH]; intros first; [reflexivity|].
        cbn [evec_elems]. rewrite !flatten_app, Hx, IH.
        cbn [custom_fmt begin_seq_element end_seq_element d_begin_seq_element]. destruct first; rewrite ?flatten_wall, ?flatten_nil; reflexivity. }
      split.
      + cbn [print]. rewrite etxt_vector, !flatten_app, He. cbn [custom_fmt begin_vector end_vector].
        unfold c_begin_vector, c_end_vector. cbn [elisp_po po_vector]. now rewrite !flatten_wall.
      + cbn [print_tail]. change (etxt_tail (Vector l)) with ([32; 46; 32] ++ etxt (Vector l)). rewrite etxt_vector.
        unfold dot_seq. rewrite !flatten_app, He.
        cbn [custom_fmt begin_seq_element write_dot end_seq_element begin_vector end_vector d_begin_seq_element].
        unfold c_begin_vector, c_end_vector. cbn [elisp_po po_vector].
        rewrite !flatten_wall, ?flatten_nil, ?app_nil_r. reflexivity.
  Qed.

  Theorem print_elisp_is_etxt v : print_custom ryu elisp_po v = etxt v.
  Proof. unfold print_custom, trace_custom. apply eprint_txt_both. Qed.
End ElispText.
