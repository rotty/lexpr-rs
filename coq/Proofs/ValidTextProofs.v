(* C06: on a well-formed text the byte slice parse never rejects where the str
   parse does not. StrSliceProofs shows the two agree unless the slice parse
   answers InvalidUnicodeCodePoint; here the input is a well-formed UTF-8 text
   W, and the reader-state logic of Utf8StrProofs (the str reader stands inside
   W, at a character boundary where it matters) shows that every symbol and
   string the scanners hand to the validation is well-formed - so the
   validation the slice reader performs and the str reader skips always
   passes, and the two parses return exactly the same result. *)
From Coq Require Import SpecFloat Lia ZifyBool ZifyNat ZifyN.
Require Import Base Value Float PrintOptions ParseOptions Utf8 Reader Scan Num NumberOps Parser.
Require Import RelFramework PositionProofs SpanProofs StrSliceProofs Utf8Proofs Utf8ParseProofs Utf8StrProofs DatumProofs.
Require SimFramework.

Definition sx0 {A} (m : M A) : Prop :=
  forall r1 r2, srel r1 r2 -> fst (m r1) = fst (m r2) /\ srel (snd (m r1)) (snd (m r2)).
Lemma sx0_alike {A} (m : M A) : alike m -> sx0 m.
Proof.
  intros H r1 r2 Hr. pose proof Hr as (K1 & K2 & _). rewrite (srel_eq r1 r2 Hr).
  destruct (H r2 K2) as [E Hk]. rewrite E. cbn [fst snd]. split; [reflexivity|apply srel_as; exact Hk].
Qed.
Lemma sx0_bind {A B} (m : M A) (f : A -> M B) : sx0 m -> (forall a, sx0 (f a)) -> sx0 (bind m f).
Proof.
  intros Hm Hf r1 r2 H. unfold bind. destruct (Hm r1 r2 H) as [E Hr].
  destruct (m r1) as [[a1|e1] r1']; destruct (m r2) as [[a2|e2] r2']; cbn [fst snd] in *; try discriminate.
  - inversion E; subst a2. apply Hf. exact Hr.
  - split; [inversion E; reflexivity|exact Hr].
Qed.
Lemma sx0_ext {A} (m m' : M A) : (forall r, m r = m' r) -> sx0 m' -> sx0 m.
Proof. intros E H r1 r2 Hr. rewrite !E. apply H. exact Hr. Qed.

Ltac sx0_walk lem :=
  plain_walk (@sx0) lem (@sx0_ext) (fun A a => sx0_alike _ (@alike_ret A a)) (fun A => sx0_alike _ (@alike_fuel A))
             (fun A c => sx0_alike _ (@alike_error A c)) (fun A c => sx0_alike _ (@alike_peek_error A c)) (@sx0_bind)
             (sx0_alike _ alike_peek) (sx0_alike _ alike_next) (sx0_alike _ alike_eat)
             (fun A c => sx0_alike _ (@alike_error_consume A c)).

(* for pieces of code that are not whole functions of the model *)
Create HintDb s0db.
Ltac sx0_step :=
  first
    [ apply sx0_alike; first [apply alike_ret | apply alike_fuel | apply alike_peek | apply alike_next | apply alike_eat
                            | apply alike_error | apply alike_peek_error | apply alike_error_consume | apply alike_position
                            | apply alike_take_run | apply alike_take_symbol ]
    | solve [eauto 3 with s0db]
    | apply sx0_bind; [|intros ?]
    | match goal with
      | |- sx0 (match ?x with _ => _ end) => destruct x
      | |- sx0 (if ?x then _ else _) => destruct x
      | |- sx0 (let '(_, _) := ?x in _) => destruct x
      end ].
Ltac sx0_auto := repeat sx0_step.

Lemma sx0_peek_or_null : sx0 peek_or_null.
Proof. sx0_walk walk_peek_or_null. Qed.
Lemma sx0_next_or_eof : sx0 next_or_eof.
Proof. sx0_walk walk_next_or_eof. Qed.
Lemma sx0_next_or_eof_char : sx0 next_or_eof_char.
Proof. sx0_walk walk_next_or_eof_char. Qed.
Lemma sx0_as_str b : sx0 (Scan.as_str b).
Proof. sx0_walk walk_as_str. Qed.
#[local] Hint Resolve sx0_peek_or_null sx0_next_or_eof sx0_next_or_eof_char sx0_as_str : s0db.

Lemma sx0_scan_symbol_slice scratch : sx0 (scan_symbol_slice scratch).
Proof. sx0_walk walk_scan_symbol_slice. exact (sx0_alike _ alike_take_symbol). Qed.

Lemma sx0_hex_escape_loop fuel : forall x, sx0 (hex_escape_loop fuel x).
Proof. sx0_walk walk_hex_escape_loop. Qed.
Lemma sx0_parse_r6rs_escape fuel : sx0 (parse_r6rs_escape fuel).
Proof. sx0_walk walk_parse_r6rs_escape. Qed.
#[local] Hint Resolve sx0_parse_r6rs_escape : s0db.
Lemma sx0_r6rs_str_slice fuel : forall scratch, sx0 (r6rs_str_slice fuel scratch).
Proof. sx0_walk walk_r6rs_str_slice. exact (sx0_alike _ alike_take_run). Qed.

Lemma sx0_elisp_hex_loop fuel : forall x, sx0 (elisp_hex_loop fuel x).
Proof. sx0_walk walk_elisp_hex_loop. Qed.
Lemma sx0_decode_elisp_uni_escape k : forall x, sx0 (decode_elisp_uni_escape k x).
Proof. sx0_walk walk_decode_elisp_uni_escape. Qed.
Lemma sx0_elisp_octal_loop fuel : forall x, sx0 (elisp_octal_loop fuel x).
Proof. sx0_walk walk_elisp_octal_loop. Qed.
Lemma sx0_elisp_char_escape_of x : sx0 (elisp_char_escape_of x).
Proof. sx0_walk walk_elisp_char_escape_of. Qed.
Lemma sx0_elisp_uni_escape_of x : sx0 (elisp_uni_escape_of x).
Proof. sx0_walk walk_elisp_uni_escape_of. Qed.
#[local] Hint Resolve sx0_elisp_hex_loop sx0_decode_elisp_uni_escape sx0_elisp_octal_loop sx0_elisp_char_escape_of sx0_elisp_uni_escape_of : s0db.
Lemma sx0_parse_elisp_escape fuel : sx0 (parse_elisp_escape fuel).
Proof. sx0_walk walk_parse_elisp_escape. Qed.
#[local] Hint Resolve sx0_parse_elisp_escape : s0db.
Lemma sx0_elisp_finish fl scratch : sx0 (elisp_finish fl scratch).
Proof. sx0_walk walk_elisp_finish. Qed.
#[local] Hint Resolve sx0_elisp_finish : s0db.
Lemma sx0_elisp_str_slice fuel : forall fl scratch, sx0 (elisp_str_slice fuel fl scratch).
Proof. sx0_walk walk_elisp_str_slice. exact (sx0_alike _ alike_take_run). Qed.

Lemma sx0_parse_elisp_str_rd fuel : sx0 (parse_elisp_str_rd fuel).
Proof.
  intros r1 r2 H. pose proof H as (K1 & K2 & _). unfold parse_elisp_str_rd. cbv zeta. rewrite K1, K2.
  apply sx0_elisp_str_slice. exact H.
Qed.
#[local] Hint Resolve sx0_parse_elisp_str_rd : s0db.
Lemma sx0_take_bytes k : forall acc, sx0 (take_bytes k acc).
Proof. sx0_walk walk_take_bytes. Qed.
#[local] Hint Resolve sx0_take_bytes : s0db.
Lemma sx0_decode_utf8_sequence_b c : sx0 (decode_utf8_sequence_b c).
Proof. sx0_walk walk_decode_utf8_sequence_b. Qed.
#[local] Hint Resolve sx0_decode_utf8_sequence_b : s0db.
Lemma sx0_decode_utf8_sequence c : sx0 (decode_utf8_sequence c).
Proof. sx0_walk walk_decode_utf8_sequence. Qed.
#[local] Hint Resolve sx0_decode_utf8_sequence : s0db.
Lemma sx0_r6rs_char_hex_loop fuel : forall x first, sx0 (r6rs_char_hex_loop fuel x first).
Proof. sx0_walk walk_r6rs_char_hex_loop. Qed.
Lemma sx0_char_name_loop fuel : forall scratch, sx0 (char_name_loop fuel scratch).
Proof. sx0_walk walk_char_name_loop. Qed.
Lemma sx0_open_ended_char x : sx0 (open_ended_char x).
Proof. sx0_walk walk_open_ended_char. Qed.
#[local] Hint Resolve sx0_r6rs_char_hex_loop sx0_char_name_loop sx0_open_ended_char : s0db.
Lemma sx0_parse_r6rs_char fuel : sx0 (parse_r6rs_char fuel).
Proof. sx0_walk walk_parse_r6rs_char. Qed.
#[local] Hint Resolve sx0_parse_r6rs_char : s0db.
Lemma sx0_as_char x : sx0 (Scan.as_char x).
Proof. sx0_walk walk_as_char. Qed.
#[local] Hint Resolve sx0_as_char : s0db.
Lemma sx0_decode_elisp_char_escape fuel : sx0 (decode_elisp_char_escape fuel).
Proof. sx0_walk walk_decode_elisp_char_escape. Qed.
#[local] Hint Resolve sx0_decode_elisp_char_escape : s0db.
Lemma sx0_parse_elisp_char fuel : sx0 (parse_elisp_char fuel).
Proof. sx0_walk walk_parse_elisp_char. Qed.
#[local] Hint Resolve sx0_parse_elisp_char : s0db.

Section NumStr0.
  Variable fast : bool.
  Variable std_parse : N -> Z -> f64.

  Lemma sx0_fast_loop fuel : forall f e, sx0 (f64_from_parts_fast_loop fuel f e).
  Proof. sx0_walk walk_fast_loop. Qed.
  Lemma sx0_f64_from_parts pos sig e : sx0 (f64_from_parts fast std_parse pos sig e).
  Proof. sx0_walk walk_f64_from_parts. Qed.
  Lemma sx0_skip_digits fuel : sx0 (skip_digits fuel).
  Proof. sx0_walk walk_skip_digits. Qed.
  Lemma sx0_parse_exponent_overflow fuel p s pe : sx0 (parse_exponent_overflow fuel p s pe).
  Proof. sx0_walk walk_parse_exponent_overflow. Qed.
  Lemma sx0_exponent_digits fuel : forall p s pe se e, sx0 (exponent_digits fast std_parse fuel p s pe se e).
  Proof. sx0_walk walk_exponent_digits. Qed.
  Lemma sx0_parse_exponent fuel p s se : sx0 (parse_exponent fast std_parse fuel p s se).
  Proof. sx0_walk walk_parse_exponent. Qed.
  Lemma sx0_decimal_digits fuel : forall s e o, sx0 (decimal_digits fuel s e o).
  Proof. sx0_walk walk_decimal_digits. Qed.
  Lemma sx0_parse_decimal fuel p s e : sx0 (parse_decimal fast std_parse fuel p s e).
  Proof. sx0_walk walk_parse_decimal. Qed.
  Lemma sx0_parse_long_integer fuel : forall radix p s e, sx0 (parse_long_integer fast std_parse fuel radix p s e).
  Proof. sx0_walk walk_parse_long_integer. Qed.
  Lemma sx0_parse_num_tail fuel radix p s : sx0 (parse_num_tail fast std_parse fuel radix p s).
  Proof. sx0_walk walk_parse_num_tail. Qed.
  Lemma sx0_num_literal_loop fuel : forall radix p s, sx0 (num_literal_loop fast std_parse fuel radix p s).
  Proof. sx0_walk walk_num_literal_loop. Qed.
  Lemma sx0_parse_num_literal fuel radix p : sx0 (parse_num_literal fast std_parse fuel radix p).
  Proof. sx0_walk walk_parse_num_literal. Qed.
End NumStr0.
#[local] Hint Resolve sx0_f64_from_parts sx0_skip_digits sx0_parse_exponent_overflow sx0_exponent_digits sx0_parse_exponent
  sx0_decimal_digits sx0_parse_decimal sx0_parse_long_integer sx0_parse_num_tail sx0_num_literal_loop sx0_parse_num_literal : s0db.

Section TokenStr0.
  Variable fast : bool.
  Variable std_parse : N -> Z -> f64.

  Lemma sx0_parse_num_token fuel radix p : sx0 (parse_num_token fast std_parse fuel radix p).
  Proof. sx0_walk walk_parse_num_token. Qed.
  Lemma sx0_parse_radix_literal fuel radix : sx0 (parse_radix_literal fast std_parse fuel radix).
  Proof. sx0_walk walk_parse_radix_literal. Qed.
  Lemma sx0_parse_number fuel : sx0 (parse_number fast std_parse fuel).
  Proof. sx0_walk walk_parse_number. Qed.
  Lemma sx0_skip_comment fuel : sx0 (skip_comment fuel).
  Proof. sx0_walk walk_skip_comment. Qed.
  Lemma sx0_parse_whitespace fuel : sx0 (parse_whitespace fuel).
  Proof. sx0_walk walk_parse_whitespace. Qed.

  Lemma sx0_expect_ident ident : sx0 (expect_ident ident).
  Proof. sx0_walk walk_expect_ident. Qed.

  Lemma sx0_end_seq fuel close : sx0 (end_seq fuel close).
  Proof. sx0_walk walk_end_seq. Qed.
  Lemma sx0_expect_end fuel : sx0 (expect_end fuel).
  Proof. sx0_walk walk_expect_end. Qed.
  Lemma sx0_byte_list_loop fuel : forall close acc, sx0 (byte_list_loop fast std_parse fuel close acc).
  Proof. sx0_walk walk_byte_list_loop. Qed.
  Lemma sx0_parse_byte_list fuel close : sx0 (parse_byte_list fast std_parse fuel close).
  Proof. sx0_walk walk_parse_byte_list. Qed.
End TokenStr0.
#[local] Hint Resolve sx0_parse_num_token sx0_parse_radix_literal sx0_parse_number sx0_skip_comment sx0_parse_whitespace
  sx0_expect_ident sx0_end_seq sx0_expect_end sx0_byte_list_loop sx0_parse_byte_list : s0db.

Definition psx0 {A} (m : PM A) : Prop :=
  forall s1 s2, sprel s1 s2 -> fst (m s1) = fst (m s2) /\ sprel (snd (m s1)) (snd (m s2)).
Lemma psx0_pret {A} (a : A) : psx0 (pret a).
Proof. exact (SimFramework.psim_pret srel a). Qed.
Lemma psx0_pfail {A} e : psx0 (@pfail A e).
Proof. exact (SimFramework.psim_pfail srel e). Qed.
Lemma psx0_liftR {A} (m : M A) : sx0 m -> psx0 (liftR m).
Proof.
  intros Hm s1 s2 [Hr Hd]. unfold liftR. destruct (Hm (rd s1) (rd s2) Hr) as [E Hr'].
  destruct (m (rd s1)) as [[a1|e1] r1']; destruct (m (rd s2)) as [[a2|e2] r2']; cbn [fst snd rd depth] in *; try discriminate;
    inversion E; subst; (split; [reflexivity|split; [exact Hr'|exact Hd]]).
Qed.
Lemma psx0_bind {A B} (m : PM A) (f : A -> PM B) : psx0 m -> (forall a, psx0 (f a)) -> psx0 (pbind m f).
Proof. exact (SimFramework.psim_bind srel m f). Qed.
Lemma psx0_get_depth : psx0 get_depth.
Proof. exact (SimFramework.psim_get_depth srel). Qed.
Lemma psx0_set_depth d : psx0 (set_depth d).
Proof. exact (SimFramework.psim_set_depth srel d). Qed.
Lemma psx0_dec_depth : psx0 dec_depth.
Proof. exact (SimFramework.psim_dec_depth srel). Qed.
Lemma psx0_inc_depth : psx0 inc_depth.
Proof. exact (SimFramework.psim_inc_depth srel). Qed.
Lemma psx0_err {A} c : psx0 (liftR (@peek_error A c)).
Proof. apply psx0_liftR. apply sx0_alike. apply alike_peek_error. Qed.
Lemma psx0_enter_nesting : psx0 enter_nesting.
Proof.
  unfold enter_nesting. apply psx0_bind; [apply psx0_dec_depth|]. intros _. apply psx0_bind; [apply psx0_get_depth|]. intros d.
  destruct (d =? 0); [|apply psx0_pret]. apply psx0_bind; [apply psx0_inc_depth|]. intros _. apply psx0_err.
Qed.
Lemma psx0_attempt {A} (m : PM A) : psx0 m -> psx0 (attempt m).
Proof. exact (SimFramework.psim_attempt srel m). Qed.
Lemma psx0_both {A} (r : res A) (e : res unit) : psx0 (both r e).
Proof. exact (SimFramework.psim_both srel r e). Qed.
Lemma psx0_lift {A} (r : res A) : psx0 (lift r).
Proof. exact (SimFramework.psim_lift srel r). Qed.
Lemma psx0_seq_cont {A B} (endm : M unit) (k : A -> PM B) r : sx0 endm -> (forall a, psx0 (k a)) ->
  psx0 (pbind inc_depth (fun _ => pbind (attempt (liftR endm)) (fun e => pbind (both r e) k))).
Proof.
  intros He Hk. apply psx0_bind; [apply psx0_inc_depth|]. intros _.
  apply psx0_bind; [apply psx0_attempt; apply psx0_liftR; exact He|]. intros e. apply psx0_bind; [apply psx0_both|exact Hk].
Qed.
Lemma psx0_quote_cont {A B} (k : A -> PM B) r : (forall a, psx0 (k a)) ->
  psx0 (pbind inc_depth (fun _ => pbind (lift r) k)).
Proof. intros Hk. apply psx0_bind; [apply psx0_inc_depth|]. intros _. apply psx0_bind; [apply psx0_lift|exact Hk]. Qed.

Section ValidText.
  Variable W : bytes.
  Hypothesis HW : utf8_valid W = true.

  Definition tw {A} (pre : reader -> Prop) (m : M A) : Prop :=
    forall r1 r2, srel r1 r2 -> okr W r1 -> pre r1 ->
    fst (m r1) = fst (m r2) /\ srel (snd (m r1)) (snd (m r2)).

  Lemma tw_sx0 {A} pre (m : M A) : sx0 m -> tw pre m.
  Proof. intros H r1 r2 Hr _ _. apply H. exact Hr. Qed.
  Lemma tw_bind {A B} pre (m : M A) (f : A -> M B) mid :
    tw pre m -> hs W pre m mid -> (forall a, tw (mid a) (f a)) -> tw pre (bind m f).
  Proof.
    intros Hm Hh Hf r1 r2 Hr Ho Hp. unfold bind. destruct (Hm r1 r2 Hr Ho Hp) as [E Hr']. specialize (Hh r1 Ho Hp).
    destruct (m r1) as [[a1|e1] r1']; destruct (m r2) as [[a2|e2] r2']; cbn [fst snd] in *; try discriminate.
    - inversion E; subst a2. destruct Hh as [Ho' Hmid]. apply Hf; assumption.
    - split; [inversion E; reflexivity|exact Hr'].
  Qed.
  Lemma tw_weaken {A} (pre pre' : reader -> Prop) (m : M A) : (forall r, pre' r -> pre r) -> tw pre m -> tw pre' m.
  Proof. intros H Hm r1 r2 Hr Ho Hp. apply Hm; auto. Qed.
  Lemma tw_pure_pre {A} (P : Prop) pre (m : M A) : (P -> tw pre m) -> tw (fun r => P /\ pre r) m.
  Proof. intros H r1 r2 Hr Ho [HP Hp]. apply (H HP); assumption. Qed.

  Lemma finish_str_valid b r : utf8_valid b = true -> rk r <> SrcIo -> finish_str b r = (Ok b, r).
  Proof.
    intros Hv Hk. unfold finish_str. destruct (rk r); try reflexivity; [|exfalso; apply Hk; reflexivity].
    unfold Scan.as_str. rewrite Hv. reflexivity.
  Qed.

  Lemma tw_parse_symbol_rd fuel scratch : utf8_valid scratch = true -> tw bnd (parse_symbol_rd fuel scratch).
  Proof.
    intros Hs r1 r2 Hr Ho Hb. pose proof Hr as (K1 & K2 & _). unfold parse_symbol_rd. rewrite K1, K2. unfold bind.
    destruct (sx0_scan_symbol_slice scratch r1 r2 Hr) as [E Hr'].
    pose proof (hs_scan_symbol_slice W HW scratch r1 Ho Hb) as Hh.
    destruct (scan_symbol_slice scratch r1) as [[n1|e1] r1']; destruct (scan_symbol_slice scratch r2) as [[n2|e2] r2']; cbn [fst snd] in *; try discriminate.
    - inversion E; subst n2. destruct Hh as [Ho' [Hv _]]. pose proof Hr' as (K1' & K2' & _).
      rewrite !finish_str_valid; auto; try congruence.
    - split; [inversion E; reflexivity|exact Hr'].
  Qed.
  Lemma tw_parse_r6rs_str_rd fuel : tw bnd (parse_r6rs_str_rd fuel).
  Proof.
    intros r1 r2 Hr Ho Hb. pose proof Hr as (K1 & K2 & _). unfold parse_r6rs_str_rd. rewrite K1, K2. unfold bind.
    destruct (sx0_r6rs_str_slice fuel [] r1 r2 Hr) as [E Hr'].
    pose proof (hs_r6rs_str_slice W HW fuel [] r1 Ho Hb) as Hh.
    destruct (r6rs_str_slice fuel [] r1) as [[n1|e1] r1']; destruct (r6rs_str_slice fuel [] r2) as [[n2|e2] r2']; cbn [fst snd] in *; try discriminate.
    - inversion E; subst n2. destruct Hh as [Ho' Hv]. pose proof Hr' as (K1' & K2' & _).
      rewrite !finish_str_valid; auto; try congruence.
    - split; [inversion E; reflexivity|exact Hr'].
  Qed.

  Lemma tw_symbol_then {B} fuel scratch (k : bytes -> M B) : utf8_valid scratch = true ->
    (forall name, sx0 (k name)) -> tw bnd (name <- parse_symbol_rd fuel scratch ;; k name).
  Proof.
    intros Hs Hk. eapply tw_bind; [apply tw_parse_symbol_rd; exact Hs|apply (hs_parse_symbol_rd W HW)|].
    intros name. apply tw_sx0. apply Hk.
  Qed.

  (* a piece that never reaches finish_str is kind-independent (sx0) and needs
     neither okr nor the precondition; only the arms that scan a symbol or a
     string go through tw_bind with the hs triples *)
  Ltac free := apply tw_sx0; sx0_auto.

  Section Token.
    Variable ro : parse_options.
    Variable alpha : N -> bool.
    Variable fast : bool.
    Variable std_parse : N -> Z -> f64.

    Theorem tw_parse_token fuel b : tw (at_byte b) (parse_token ro alpha fast std_parse fuel b).
    Proof.
      unfold parse_token.
      destruct (b =? 35) eqn:E35.
      { eapply tw_bind; [free|apply (hs_eat_ascii W HW b); lia|]. intros ?u.
        eapply tw_bind; [free|apply (hs_next_ascii W HW)|]. intros o. destruct o as [c|]; [|free]. cbv beta.
        destruct (c =? 116); [free|]. destruct (c =? 102); [free|].
        destruct (c =? 110); [free|]. destruct (c =? 40); [free|].
        destruct ((c =? 58) && ro_kw_octo ro) eqn:Ek.
        { eapply tw_weaken; [|apply (tw_symbol_then fuel [] (fun s => ret (TKeyword s)) eq_refl)]; [|intros; sx0_auto].
          intros r H. apply H. apply andb_prop in Ek. destruct Ek as [Ek _]. lia. }
        destruct (c =? 118); [free|]. destruct (c =? 117); [free|].
        destruct (c =? 98); [free|]. destruct (c =? 111); [free|].
        destruct (c =? 100); [free|]. destruct (c =? 120); [free|].
        destruct (c =? 92); [free|].
        destruct ((c =? 37) && ro_racket ro) eqn:Er; [|free].
        eapply tw_weaken; [|apply (tw_symbol_then fuel (s2b "#%") (fun s => ret (TSymbol s)) eq_refl)]; [|intros; sx0_auto].
        intros r H. apply H. apply andb_prop in Er. destruct Er as [Er _]. lia. }
      destruct ((b =? 45) || (b =? 43)) eqn:Esg.
      { assert (Hb : b < 128) by lia.
        eapply tw_bind; [free|apply (hs_eat_ascii W HW b Hb)|]. intros ?u.
        eapply tw_bind; [free|apply (hs_peek_or_null_keep W boundary_head)|]. intros nx. cbv beta.
        match goal with |- tw _ (if ?c then _ else _) => destruct c end; [|free].
        apply (tw_symbol_then fuel [b] (fun name => ret (symbol_token ro name))); [apply ascii_valid1; exact Hb|intros; sx0_auto]. }
      destruct (is_digit b) eqn:Ed.
      { assert (Hb : b < 128) by (unfold is_digit, in_range in Ed; lia).
        destruct (ro_digit ro); [|free].
        eapply tw_weaken; [|apply (tw_symbol_then fuel [] _ eq_refl)]; [intros r H; exact (at_ascii_bnd r b H Hb)|].
        intros name. sx0_auto. }
      destruct (b =? 34) eqn:E34.
      { eapply tw_bind; [free|apply (hs_eat_ascii W HW b); lia|]. intros ?u. destruct (ro_string ro).
        - eapply tw_bind; [apply tw_parse_r6rs_str_rd|apply (hs_parse_r6rs_str_rd W HW)|]. intros s0. free.
        - free. }
      destruct (b =? 40); [free|].
      destruct (b =? 91); [free|].
      destruct (b =? 58) eqn:E58.
      { destruct (ro_kw_prefix ro).
        - eapply tw_bind; [free|apply (hs_eat_ascii W HW b); lia|]. intros ?u.
          apply (tw_symbol_then fuel [] (fun s => ret (TKeyword s)) eq_refl). intros; sx0_auto.
        - eapply tw_weaken; [|apply (tw_symbol_then fuel [] (fun s => ret (TSymbol s)) eq_refl)]; [|intros; sx0_auto].
          intros r H. apply (at_ascii_bnd r b H). lia. }
      destruct (is_ascii_alpha b) eqn:Ea.
      { eapply tw_weaken; [|apply (tw_symbol_then fuel [] (fun name => ret (symbol_token ro name)) eq_refl)]; [|intros; sx0_auto].
        intros r H. apply (at_ascii_bnd r b H). unfold is_ascii_alpha, is_ascii_lower, is_ascii_upper, in_range in Ea. lia. }
      destruct ((b =? 63) && _); [free|].
      destruct (b =? 39); [free|].
      destruct (b =? 96); [free|].
      destruct (b =? 44); [free|].
      destruct (127 <? b) eqn:Ehi.
      { eapply tw_bind; [free|apply (hs_eat_prev W)|]. intros ?u.
        eapply tw_bind; [free|apply (hs_decode_utf8_sequence_b W HW)|]. intros res. cbv beta.
        destruct (negb (alpha (snd res))); [free|].
        apply tw_pure_pre. intros Hv. apply (tw_symbol_then fuel (fst res) (fun name => ret (symbol_token ro name)) Hv). intros; sx0_auto. }
      destruct (memb b SYMBOL_EXTENDED) eqn:Ex.
      { eapply tw_weaken; [|apply (tw_symbol_then fuel [] (fun name => ret (symbol_token ro name)) eq_refl)]; [|intros; sx0_auto].
        intros r H. apply (at_ascii_bnd r b H). lia. }
      free.
    Qed.
  End Token.

  Definition ptw {A} (pre : reader -> Prop) (m : PM A) : Prop :=
    forall s1 s2, sprel s1 s2 -> okr W (rd s1) -> pre (rd s1) ->
    fst (m s1) = fst (m s2) /\ sprel (snd (m s1)) (snd (m s2)).
  Definition pmid {A} (pre : reader -> Prop) (m : PM A) (mid : A -> reader -> Prop) : Prop :=
    forall s, okr W (rd s) -> pre (rd s) ->
    match m s with (POk a, s') => okr W (rd s') /\ mid a (rd s') | (PErr _, _) => True end.

  Lemma ptw_free {A} pre (m : PM A) : psx0 m -> ptw pre m.
  Proof. intros H s1 s2 Hs _ _. apply H. exact Hs. Qed.
  Lemma ptw_any {A} pre (m : PM A) : ptw anyr m -> ptw pre m.
  Proof. intros H s1 s2 Hs Ho _. apply H; [exact Hs|exact Ho|exact I]. Qed.
  Lemma ptw_bind {A B} pre (m : PM A) (f : A -> PM B) mid :
    ptw pre m -> pmid pre m mid -> (forall a, ptw (mid a) (f a)) -> ptw pre (pbind m f).
  Proof.
    intros Hm Hh Hf s1 s2 Hs Ho Hp. rewrite !pbind_unfold. destruct (Hm s1 s2 Hs Ho Hp) as [E Hr]. specialize (Hh s1 Ho Hp).
    destruct (m s1) as [[a1|x1] s1']; destruct (m s2) as [[a2|x2] s2']; cbn [fst snd] in *; try discriminate.
    - inversion E; subst a2. destruct Hh as [Ho' Hmid]. apply Hf; assumption.
    - inversion E; subst x2. split; [reflexivity|exact Hr].
  Qed.
  Lemma ptw_then_free {A B} pre (m : PM A) (f : A -> PM B) : ptw pre m -> (forall a, psx0 (f a)) -> ptw pre (pbind m f).
  Proof.
    intros Hm Hf s1 s2 Hs Ho Hp. rewrite !pbind_unfold. destruct (Hm s1 s2 Hs Ho Hp) as [E Hr].
    destruct (m s1) as [[a1|x1] s1']; destruct (m s2) as [[a2|x2] s2']; cbn [fst snd] in *; try discriminate.
    - inversion E; subst a2. apply Hf. exact Hr.
    - inversion E; subst x2. split; [reflexivity|exact Hr].
  Qed.
  Lemma ptw_attempt {A} pre (m : PM A) : ptw pre m -> ptw pre (attempt m).
  Proof.
    intros Hm s1 s2 Hs Ho Hp. rewrite !attempt_unfold. destruct (Hm s1 s2 Hs Ho Hp) as [E Hr].
    destruct (m s1) as [[a1|x1] s1']; destruct (m s2) as [[a2|x2] s2']; cbn [fst snd] in *; try discriminate.
    - inversion E; subst a2. split; [reflexivity|exact Hr].
    - inversion E; subst x2. destruct x1 as [[c l cl|io|]|k]; cbn [fst snd]; (split; [reflexivity|exact Hr]).
  Qed.
  Lemma ptw_liftR {A} pre (m : M A) : tw pre m -> ptw pre (liftR m).
  Proof.
    intros Hm s1 s2 [Hr Hd] Ho Hp. unfold liftR. destruct (Hm (rd s1) (rd s2) Hr Ho Hp) as [E Hr'].
    destruct (m (rd s1)) as [[a1|e1] r1']; destruct (m (rd s2)) as [[a2|e2] r2']; cbn [fst snd rd depth] in *; try discriminate;
      inversion E; subst; (split; [reflexivity|split; [exact Hr'|exact Hd]]).
  Qed.

  Lemma pmid_liftR_hs {A} pre (m : M A) post : hs W pre m post -> pmid pre (liftR m) post.
  Proof.
    intros Hm s Ho Hp. unfold liftR. specialize (Hm (rd s) Ho Hp). destruct (m (rd s)) as [[a|e] r1]; [|exact I]. cbn [rd]. exact Hm.
  Qed.
  Lemma pmid_liftR_cov {A} pre (m : M A) : covered W m -> pmid pre (liftR m) (fun _ _ => True).
  Proof.
    intros Hc s Ho _. unfold liftR. pose proof (okr_step W m (rd s) Hc Ho) as Ho'.
    destruct (m (rd s)) as [[a|e] r1]; [|exact I]. cbn [rd snd] in *. auto.
  Qed.
  Lemma pmid_psp {A} pre (m : PM A) q : psp W pre m q -> pmid pre m (fun _ _ => True).
  Proof. intros H s Ho Hp. specialize (H s Ho Hp). destruct (m s) as [[a|e] s1]; [|exact I]. destruct H. auto. Qed.
  Lemma pmid_ws f : pmid anyr (liftR (parse_whitespace f)) (fun o r => match o with Some b => at_byte b r | None => True end).
  Proof.
    intros s Ho _. unfold liftR. pose proof (okr_step W _ (rd s) (cov_ws W f) Ho) as Ho1. pose proof (ws_at_byte f (rd s)) as Hat.
    destruct (parse_whitespace f (rd s)) as [[o|e] r1]; [|exact I]. cbn [snd rd] in *. split; [exact Ho1|]. destruct o; [exact Hat|exact I].
  Qed.
  Lemma pmid_enter pre : pmid pre enter_nesting (fun _ _ => True).
  Proof. apply (pmid_psp pre _ (fun _ => True)). apply psp_any. apply pcov_enter. Qed.

  Section Values.
    Variable ro : parse_options.
    Variable alpha : N -> bool.
    Variable fast : bool.
    Variable std_parse : N -> Z -> f64.
    Local Notation next_value := (next_value ro alpha fast std_parse).
    Local Notation parse_list := (parse_list ro alpha fast std_parse).
    Local Notation parse_vector := (parse_vector ro alpha fast std_parse).
    Local Notation next_datum := (next_datum ro alpha fast std_parse).
    Local Notation parse_list_meta := (parse_list_meta ro alpha fast std_parse).
    Local Notation parse_vector_meta := (parse_vector_meta ro alpha fast std_parse).
    Local Notation parse_token := (parse_token ro alpha fast std_parse).

    Lemma ptw_ws {A} f (k : option N -> PM A) :
      ptw anyr (k None) -> (forall b, ptw (at_byte b) (k (Some b))) -> ptw anyr (pbind (liftR (parse_whitespace f)) k).
    Proof.
      intros Hn Hs. eapply ptw_bind; [apply ptw_free, psx0_liftR, sx0_parse_whitespace|apply pmid_ws|].
      intros [b|]; [apply Hs|apply ptw_any, Hn].
    Qed.
    Lemma ptw_token {A} f b (k : token -> PM A) : (forall tok, ptw anyr (k tok)) -> ptw (at_byte b) (pbind (liftR (parse_token f b)) k).
    Proof.
      intros Hk. eapply ptw_bind; [apply ptw_liftR, tw_parse_token|apply pmid_liftR_cov, cov_token|]. intros tok. apply Hk.
    Qed.
    Lemma pmid_next_value pre fuel : pmid pre (next_value fuel) (fun _ _ => True).
    Proof.
      intros s Ho _. pose proof (proj1 (values_valid_str W HW ro alpha fast std_parse fuel) s Ho I) as H.
      destruct (next_value fuel s) as [[a|e] s1]; [|exact I]. destruct H. auto.
    Qed.
    Lemma pmid_next_datum pre fuel : pmid pre (next_datum fuel) (fun _ _ => True).
    Proof.
      intros s Ho Hp. pose proof (pmid_next_value pre fuel s Ho Hp) as H.
      rewrite (proj1 (DatumProofs.agreement ro alpha fast std_parse fuel) s) in H. unfold DatumProofs.pmap in H.
      destruct (next_datum fuel s) as [[a|e] s1]; cbn [fst snd] in H; [exact H|exact I].
    Qed.
    Lemma ptw_position_then {A} pre (k : N * N -> PM A) : (forall p, ptw pre (k p)) -> ptw pre (pbind (liftR position) k).
    Proof.
      intros Hk s1 s2 Hs Ho Hp. rewrite !pbind_unfold. unfold liftR, position.
      pose proof Hs as [(K1 & K2 & Hl & Hc & Hpd & Hi) Hd]. unfold r_position. rewrite Hl, Hc. cbn [fst snd].
      destruct s1 as [r1 d1], s2 as [r2 d2]. cbn [rd depth] in *. apply Hk; assumption.
    Qed.

    Theorem twin_values fuel :
      ptw anyr (next_value fuel) /\ (forall t acc, ptw anyr (parse_list fuel t acc)) /\ (forall t acc, ptw anyr (parse_vector fuel t acc)).
    Proof.
      induction fuel as [|f (IHv & IHl & IHvec)]; [split; [|split]; intros; apply ptw_free, psx0_pfail|].
      split; [|split].
      - cbn [Parser.next_value]. fold next_value parse_list parse_vector. apply ptw_ws; [apply ptw_free, psx0_pret|]. intros b. apply ptw_token. intros tok.
        destruct tok; try apply ptw_free, psx0_pret.
        + eapply ptw_bind; [apply ptw_free, psx0_enter_nesting|apply pmid_enter|]. intros ?u. cbv beta.
          apply ptw_then_free; [apply ptw_attempt, ptw_any, IHl|]. intros r. apply psx0_seq_cont; [apply sx0_end_seq|intros; apply psx0_pret].
        + eapply ptw_bind; [apply ptw_free, psx0_enter_nesting|apply pmid_enter|]. intros ?u. cbv beta.
          apply ptw_then_free; [apply ptw_attempt, ptw_any, IHv|]. intros r. apply psx0_quote_cont.
          intros o. destruct o; [apply psx0_pret|apply psx0_err].
        + eapply ptw_bind; [apply ptw_free, psx0_enter_nesting|apply pmid_enter|]. intros ?u. cbv beta.
          apply ptw_then_free; [apply ptw_attempt, ptw_any, IHvec|]. intros r. apply psx0_seq_cont; [apply sx0_end_seq|intros; apply psx0_pret].
        + apply ptw_free. apply psx0_bind; [apply psx0_liftR, sx0_parse_byte_list|intros; apply psx0_pret].
      - intros t acc. cbn [Parser.parse_list]. fold next_value parse_list parse_vector. apply ptw_ws; [apply ptw_free, psx0_err|]. intros c.
        destruct (is_closer c). { destruct (negb (c =? t)); apply ptw_free; [apply psx0_err|apply psx0_pret]. }
        destruct (c =? 46) eqn:E46.
        + eapply ptw_bind; [apply ptw_free, psx0_liftR; sx0_auto|apply pmid_liftR_hs, (hs_eat_peek_bnd W HW c); lia|].
          intros nx. destruct (lone_dot nx).
          * destruct acc as [|a0 acc'].
            -- apply ptw_free. apply psx0_bind; [apply psx0_liftR; sx0_auto|]. intros o3. destruct o3; apply psx0_err.
            -- eapply ptw_bind; [apply ptw_any, IHv|apply pmid_next_value|]. intros ov. destruct ov as [cdr|]; [|apply ptw_free, psx0_err].
               apply ptw_free. apply psx0_bind; [apply psx0_liftR, sx0_parse_whitespace|]. intros o2.
               destruct o2 as [c2|]; [destruct (c2 =? t); [apply psx0_pret|apply psx0_err]|apply psx0_err].
          * eapply ptw_bind; [apply ptw_liftR; unfold parse_symbol_suffix; apply tw_parse_symbol_rd; reflexivity
                             |apply pmid_liftR_hs; unfold parse_symbol_suffix; apply (hs_parse_symbol_rd W HW)|].
            intros name. apply ptw_any, IHl.
        + apply ptw_any. eapply ptw_bind; [apply IHv|apply pmid_next_value|]. intros ov. destruct ov; [apply ptw_any, IHl|apply ptw_free, psx0_err].
      - intros t acc. cbn [Parser.parse_vector]. fold next_value parse_list parse_vector. apply ptw_ws; [apply ptw_free, psx0_err|]. intros c.
        destruct (is_closer c). { destruct (negb (c =? t)); apply ptw_free; [apply psx0_err|apply psx0_pret]. }
        apply ptw_any. eapply ptw_bind; [apply IHv|apply pmid_next_value|]. intros ov. destruct ov; [apply ptw_any, IHvec|apply ptw_free, psx0_err].
    Qed.

    Theorem twin_datums fuel :
      ptw anyr (next_datum fuel) /\ (forall t acc, ptw anyr (parse_list_meta fuel t acc)) /\ (forall t acc, ptw anyr (parse_vector_meta fuel t acc)).
    Proof.
      induction fuel as [|f (IHv & IHl & IHvec)]; [split; [|split]; intros; apply ptw_free, psx0_pfail|].
      assert (Hpos : forall A (k : N * N -> PM A), (forall p, psx0 (k p)) -> psx0 (pbind (liftR position) k)).
      { intros A k Hk. apply psx0_bind; [apply psx0_liftR; sx0_auto|exact Hk]. }
      split; [|split].
      - cbn [Parser.next_datum]. fold next_datum parse_list_meta parse_vector_meta. apply ptw_ws; [apply ptw_free, psx0_pret|]. intros b.
        apply ptw_position_then. intros start. apply ptw_token. intros tok. cbv zeta.
        destruct tok; try (apply ptw_free, Hpos; intros; apply psx0_pret).
        + eapply ptw_bind; [apply ptw_free, psx0_enter_nesting|apply pmid_enter|]. intros ?u. cbv beta.
          apply ptw_then_free; [apply ptw_attempt, ptw_any, IHl|]. intros r. apply psx0_seq_cont; [apply sx0_end_seq|].
          intros l. apply Hpos. intros; apply psx0_pret.
        + apply ptw_position_then. intros token_end.
          eapply ptw_bind; [apply ptw_free, psx0_enter_nesting|apply pmid_enter|]. intros ?u. cbv beta.
          apply ptw_then_free; [apply ptw_attempt, ptw_any, IHv|]. intros r. apply psx0_quote_cont.
          intros o. destruct o; [apply psx0_pret|apply psx0_err].
        + eapply ptw_bind; [apply ptw_free, psx0_enter_nesting|apply pmid_enter|]. intros ?u. cbv beta.
          apply ptw_then_free; [apply ptw_attempt, ptw_any, IHvec|]. intros r. apply psx0_seq_cont; [apply sx0_end_seq|].
          intros l. apply Hpos. intros; apply psx0_pret.
        + apply ptw_free. apply psx0_bind; [apply psx0_liftR, sx0_parse_byte_list|]. intros. apply Hpos. intros; apply psx0_pret.
      - intros t acc. cbn [Parser.parse_list_meta]. fold next_datum parse_list_meta parse_vector_meta. apply ptw_ws; [apply ptw_free, psx0_err|]. intros c.
        destruct (is_closer c). { destruct (negb (c =? t)); apply ptw_free; [apply psx0_err|apply psx0_pret]. }
        destruct (c =? 46) eqn:E46.
        + apply ptw_position_then. intros start.
          eapply ptw_bind; [apply ptw_free, psx0_liftR; sx0_auto|apply pmid_liftR_hs, (hs_eat_peek_bnd W HW c); lia|].
          intros nx. destruct (lone_dot nx).
          * destruct acc as [|a0 acc'].
            -- apply ptw_free. apply psx0_bind; [apply psx0_liftR; sx0_auto|]. intros o3. destruct o3; apply psx0_err.
            -- eapply ptw_bind; [apply ptw_any, IHv|apply pmid_next_datum|]. intros ov. destruct ov as [cdr|]; [|apply ptw_free, psx0_err].
               apply ptw_free. apply psx0_bind; [apply psx0_liftR, sx0_parse_whitespace|]. intros o2.
               destruct o2 as [c2|]; [destruct (c2 =? t); [apply psx0_pret|apply psx0_err]|apply psx0_err].
          * eapply ptw_bind; [apply ptw_liftR; unfold parse_symbol_suffix; apply tw_parse_symbol_rd; reflexivity
                             |apply pmid_liftR_hs; unfold parse_symbol_suffix; apply (hs_parse_symbol_rd W HW)|].
            intros name. cbv beta. apply ptw_any. apply ptw_position_then. intros e. apply IHl.
        + apply ptw_any. eapply ptw_bind; [apply IHv|apply pmid_next_datum|]. intros ov. destruct ov; [apply ptw_any, IHl|apply ptw_free, psx0_err].
      - intros t acc. cbn [Parser.parse_vector_meta]. fold next_datum parse_list_meta parse_vector_meta. apply ptw_ws; [apply ptw_free, psx0_err|]. intros c.
        destruct (is_closer c). { destruct (negb (c =? t)); apply ptw_free; [apply psx0_err|apply psx0_pret]. }
        apply ptw_any. eapply ptw_bind; [apply IHv|apply pmid_next_datum|]. intros ov. destruct ov; [apply ptw_any, IHvec|apply ptw_free, psx0_err].
    Qed.

    Lemma init_okr : okr W (rd (init_state SrcStr (bytes_events W))).
    Proof.
      split; [apply inv_init; rewrite bytes_in_bytes_events; reflexivity|]. split; [reflexivity|apply all_bytes_events].
    Qed.

    Theorem valid_text_agree :
      from_trait ro alpha fast std_parse SrcStr (bytes_events W) = from_trait ro alpha fast std_parse SrcSlice (bytes_events W) /\
      datum_from_trait ro alpha fast std_parse SrcStr (bytes_events W) = datum_from_trait ro alpha fast std_parse SrcSlice (bytes_events W).
    Proof.
      unfold from_trait, datum_from_trait. cbv zeta. set (inp := bytes_events W). set (fuel := fuel_for inp).
      assert (He : forall A (v : A), psx0 (pbind (expect_end_p fuel) (fun _ => pret v))).
      { intros A v. apply psx0_bind; [unfold expect_end_p; apply psx0_liftR, sx0_expect_end|intros; apply psx0_pret]. }
      split.
      - assert (H : ptw anyr (pbind (expect_value ro alpha fast std_parse fuel) (fun v => pbind (expect_end_p fuel) (fun _ => pret v)))).
        { apply ptw_then_free; [|intros v; apply He]. unfold expect_value.
          apply ptw_then_free; [apply twin_values|]. intros o. destruct o; [apply psx0_pret|apply psx0_err]. }
        apply (H _ _ (init_sprel inp) init_okr I).
      - assert (H : ptw anyr (pbind (expect_datum ro alpha fast std_parse fuel) (fun v => pbind (expect_end_p fuel) (fun _ => pret v)))).
        { apply ptw_then_free; [|intros v; apply He]. unfold expect_datum.
          apply ptw_then_free; [apply twin_datums|]. intros o. destruct o; [apply psx0_pret|apply psx0_err]. }
        apply (H _ _ (init_sprel inp) init_okr I).
    Qed.

    Lemma okr_after_call fuel s : okr W (rd s) ->
      okr W (rd (snd (next_value fuel s))) /\ okr W (rd (snd (next_datum fuel s))).
    Proof.
      intros (Hi & Hk & Ha).
      pose proof (proj1 (pos_values W ro alpha fast std_parse fuel) s) as P1.
      pose proof (proj1 (pos_datums W ro alpha fast std_parse fuel) s) as P2.
      pose proof (proj1 (psat_values Rrk Rrk_ret Rrk_seq Rrk_fuel rk_peek rk_next rk_eat rk_error rk_peek_error rk_error_consume
                     rk_take_run rk_take_symbol fast std_parse ro alpha Rrk_rec1 Rrk_rec2 fuel) s) as K1.
      pose proof (proj1 (psat_datums Rrk Rrk_ret Rrk_seq Rrk_fuel rk_peek rk_next rk_eat rk_error rk_peek_error rk_error_consume
                     rk_take_run rk_take_symbol fast std_parse ro alpha Rrk_rec1 Rrk_rec2 fuel) s) as K2.
      pose proof (proj1 (psat_values Rab Rab_ret Rab_seq Rab_fuel ab_peek ab_next ab_eat ab_error ab_peek_error ab_error_consume
                     ab_take_run ab_take_symbol fast std_parse ro alpha Rab_rec1 Rab_rec2 fuel) s) as A1.
      pose proof (proj1 (psat_datums Rab Rab_ret Rab_seq Rab_fuel ab_peek ab_next ab_eat ab_error ab_peek_error ab_error_consume
                     ab_take_run ab_take_symbol fast std_parse ro alpha Rab_rec1 Rab_rec2 fuel) s) as A2.
      unfold Rpos, Rrk, Rab in *. split; (split; [|split]).
      - apply (P1 Hi).
      - rewrite K1. exact Hk.
      - apply A1. exact Ha.
      - apply (P2 Hi).
      - rewrite K2. exact Hk.
      - apply A2. exact Ha.
    Qed.

    Theorem twin_iterate fuel n : forall s1 s2, sprel s1 s2 -> okr W (rd s1) ->
      iterate_values ro alpha fast std_parse fuel n s1 = iterate_values ro alpha fast std_parse fuel n s2 /\
      iterate_datums ro alpha fast std_parse fuel n s1 = iterate_datums ro alpha fast std_parse fuel n s2.
    Proof.
      induction n as [|n IH]; intros s1 s2 Hs Ho; [split; reflexivity|].
      cbn [iterate_values iterate_datums].
      destruct (proj1 (twin_values fuel) s1 s2 Hs Ho I) as [Ev Hv]. destruct (proj1 (twin_datums fuel) s1 s2 Hs Ho I) as [Ed Hd].
      destruct (okr_after_call fuel s1 Ho) as [Ov Od].
      split.
      - destruct (next_value fuel s1) as [[[v1|]|e1] s1']; destruct (next_value fuel s2) as [[[v2|]|e2] s2']; cbn [fst snd] in *; try discriminate;
          try reflexivity; inversion Ev; subst; f_equal; apply (IH s1' s2' Hv Ov).
      - destruct (next_datum fuel s1) as [[[v1|]|e1] s1']; destruct (next_datum fuel s2) as [[[v2|]|e2] s2']; cbn [fst snd] in *; try discriminate;
          try reflexivity; inversion Ed; subst; f_equal; apply (IH s1' s2' Hd Od).
    Qed.
    Theorem valid_text_iterate n :
      iterate_values ro alpha fast std_parse (fuel_for (bytes_events W)) n (init_state SrcStr (bytes_events W)) =
      iterate_values ro alpha fast std_parse (fuel_for (bytes_events W)) n (init_state SrcSlice (bytes_events W)) /\
      iterate_datums ro alpha fast std_parse (fuel_for (bytes_events W)) n (init_state SrcStr (bytes_events W)) =
      iterate_datums ro alpha fast std_parse (fuel_for (bytes_events W)) n (init_state SrcSlice (bytes_events W)).
    Proof. apply twin_iterate; [apply init_sprel|apply init_okr]. Qed.
  End Values.
End ValidText.
