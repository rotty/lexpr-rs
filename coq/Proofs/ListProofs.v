Require Import Base Value NumberOps ListOps.
From Coq Require Import ZifyBool ZifyNat ZifyN.

Lemma beq_bytes_refl a : beq_bytes a a = true.
Proof. induction a as [|x a IH]; cbn; [reflexivity|]. now rewrite N.eqb_refl, IH. Qed.
Lemma beq_bytes_eq a b : beq_bytes a b = true -> a = b.
Proof.
  revert b; induction a as [|x a IH]; intros [|y b]; cbn; try discriminate; [reflexivity|].
  intros H. apply andb_prop in H. destruct H as [H1 H2]. apply N.eqb_eq in H1. subst. f_equal. now apply IH.
Qed.

Lemma build_app xs ys t : build xs (build ys t) = build (xs ++ ys) t.
Proof. induction xs as [|x xs IH]; cbn; [reflexivity|now rewrite IH]. Qed.

Lemma cons_to_vec_build x xs t : is_cons t = false -> cons_to_vec x (build xs t) = (x :: xs, t).
Proof.
  revert x; induction xs as [|y ys IH]; intros x Ht; cbn [build].
  - destruct t; try discriminate; reflexivity.
  - cbn [cons_to_vec]. now rewrite IH.
Qed.

Lemma into_iter_build pre l t : is_cons t = false -> forall x xs, x :: xs = pre ++ [l] ->
  into_iter_items x (build xs t) = map (fun e => (e, None)) pre ++ [(l, Some t)].
Proof.
  intros Ht. induction pre as [|p pre IH]; intros x xs E; cbn [app] in E.
  - inversion E; subst. cbn [build map app]. destruct t; try discriminate; reflexivity.
  - inversion E; subst. destruct pre as [|q pre']; cbn [app] in *.
    + pose proof (IH l [] eq_refl) as H. cbn [build] in H.
      cbn [build into_iter_items map app]. now rewrite H.
    + pose proof (IH q (pre' ++ [l]) eq_refl) as H.
      cbn [build into_iter_items map app]. now rewrite H.
Qed.

Lemma into_vec_loop_spec items acc pre lastx t :
  items = map (fun e => (e, None)) pre ++ [(lastx, Some t)] ->
  into_vec_loop items acc = Some (acc ++ pre ++ [lastx], t).
Proof.
  revert items acc; induction pre as [|p pre IH]; intros items acc ->; cbn.
  - reflexivity.
  - rewrite (IH _ _ eq_refl). now rewrite <- app_assoc.
Qed.

Lemma cons_into_vec_build x xs t : is_cons t = false ->
  cons_into_vec x (build xs t) = Some (x :: xs, t).
Proof.
  intros Ht. unfold cons_into_vec.
  destruct (exists_last (l := x :: xs) ltac:(discriminate)) as (pre & l & E).
  rewrite (into_iter_build pre l t Ht x xs E).
  rewrite (into_vec_loop_spec _ [] _ _ _ eq_refl). cbn [app]. now rewrite E.
Qed.

Lemma iter_cells_length x xs t : is_cons t = false ->
  length (iter_cells x (build xs t)) = S (length xs).
Proof.
  revert x; induction xs as [|y ys IH]; intros x Ht; cbn [build iter_cells length].
  - destruct t; try discriminate; reflexivity.
  - now rewrite IH.
Qed.

Lemma value_to_vec_build xs t : is_cons t = false ->
  value_to_vec (build xs t) =
  match xs with
  | [] => match t with Null => Some [] | _ => None end
  | _ => if is_null t then Some xs else None
  end.
Proof.
  intros Ht. destruct xs as [|x xs]; cbn [build value_to_vec].
  - destruct t; try discriminate; reflexivity.
  - now rewrite cons_to_vec_build.
Qed.

Lemma drain_exhausted k : drain k LExhausted = repeat None k.
Proof. induction k; cbn; [reflexivity|now rewrite IHk]. Qed.

Definition after_tail (t : value) : list_cursor :=
  match t with Null => LExhausted | _ => LDot t end.

Lemma list_iter_prefix x xs t k : is_cons t = false ->
  drain (S (length xs) + k) (LCons x (build xs t)) = map Some (x :: xs) ++ drain k (after_tail t).
Proof.
  revert x; induction xs as [|y ys IH]; intros x Ht.
  - cbn [length Nat.add build drain list_iter_next map app].
    destruct t; try discriminate; reflexivity.
  - cbn [length build]. change (S (S (length ys)) + k)%nat with (S (S (length ys) + k)).
    cbn [drain list_iter_next]. rewrite IH by assumption. reflexivity.
Qed.

Lemma list_iter_build x xs t k : is_cons t = false ->
  drain (S (length xs) + (3 + k)) (LCons x (build xs t)) =
  map Some (x :: xs) ++
    (if is_null t then repeat None (3 + k) else [None; Some t; None] ++ repeat None k).
Proof.
  intros Ht. rewrite list_iter_prefix by assumption. f_equal.
  destruct t; try discriminate; cbn [after_tail is_null];
    first [ now rewrite drain_exhausted
          | cbn [Nat.add drain list_iter_next app]; now rewrite drain_exhausted ].
Qed.

Lemma nth_N_spec {A} (l : list A) i : nth_N l i = nth_error l (N.to_nat i).
Proof.
  revert i; induction l as [|x l IH]; intros i; cbn.
  - now destruct (N.to_nat i).
  - destruct (i =? 0) eqn:E.
    + assert (i = 0) by lia; subst; reflexivity.
    + rewrite IH. replace (N.to_nat i) with (S (N.to_nat (i - 1))) by lia. reflexivity.
Qed.

Lemma cons_get_unfold a d i :
  cons_get a d i = if i =? 0 then Some a
                   else match d with Cons a' d' => cons_get a' d' (i - 1) | _ => None end.
Proof. destruct d; reflexivity. Qed.

Lemma cons_get_build x xs t i : is_cons t = false ->
  cons_get x (build xs t) i = nth_error (x :: xs) (N.to_nat i).
Proof.
  revert x i; induction xs as [|y ys IH]; intros x i Ht; cbn [build]; rewrite cons_get_unfold.
  - destruct (i =? 0) eqn:E.
    + assert (i = 0) by lia; subst; reflexivity.
    + replace (N.to_nat i) with (S (N.to_nat (i - 1))) by lia. cbn [nth_error].
      destruct t; try discriminate; now destruct (N.to_nat (i - 1)).
  - destruct (i =? 0) eqn:E.
    + assert (i = 0) by lia; subst; reflexivity.
    + rewrite IH by assumption.
      replace (N.to_nat i) with (S (N.to_nat (i - 1))) by lia. reflexivity.
Qed.

Lemma get_usize_build xs t i : is_cons t = false -> (xs <> [] \/ is_vector t = false) ->
  get_usize (build xs t) i = nth_error xs (N.to_nat i).
Proof.
  intros Ht Hv. destruct xs as [|x xs]; cbn [build get_usize].
  - destruct Hv as [Hv|Hv]; [congruence|].
    destruct t; try discriminate; now destruct (N.to_nat i).
  - now apply cons_get_build.
Qed.

Lemma get_usize_vector l i : get_usize (Vector l) i = nth_error l (N.to_nat i).
Proof. apply nth_N_spec. Qed.

Lemma predicates_complementary v : is_list v = negb (is_dotted_list v).
Proof.
  destruct v; try reflexivity. cbn [is_list is_dotted_list].
  clear v1. induction v2; try reflexivity.
  cbn [all_cells is_null negb andb]. exact IHv2_2.
Qed.

Lemma is_list_build xs t : is_cons t = false -> is_list (build xs t) = is_null t.
Proof.
  intros Ht. destruct xs as [|x xs]; cbn [build].
  - destruct t; try discriminate; reflexivity.
  - cbn [is_list]. induction xs as [|y ys IH]; cbn [build all_cells].
    + destruct t; try discriminate; reflexivity.
    + exact IH.
Qed.

Fixpoint first_match (f : value -> option value) (l : list value) : option value :=
  match l with
  | [] => None
  | e :: l' => match f e with Some r => Some r | None => first_match f l' end
  end.

Lemma find_map_unfold f a d :
  find_map_cells f a d = match f a with
                         | Some r => Some r
                         | None => match d with Cons a' d' => find_map_cells f a' d' | _ => None end
                         end.
Proof. destruct d; reflexivity. Qed.

Lemma find_map_build f x xs t : is_cons t = false ->
  find_map_cells f x (build xs t) = first_match f (x :: xs).
Proof.
  revert x; induction xs as [|y ys IH]; intros x Ht; cbn [build first_match]; rewrite find_map_unfold.
  - destruct (f x); [reflexivity|]. destruct t; try discriminate; reflexivity.
  - destruct (f x); [reflexivity|]. now rewrite IH.
Qed.

Lemma find_map_value f xs t : is_cons t = false ->
  match build xs t with Cons a d => find_map_cells f a d | _ => None end =
  match xs with [] => None | _ => first_match f xs end.
Proof.
  intros Ht. destruct xs as [|x xs]; cbn [build].
  - destruct t; try discriminate; reflexivity.
  - now apply find_map_build.
Qed.

Lemma get_str_build xs t name : is_cons t = false ->
  get_str (build xs t) name = match xs with [] => None | _ => first_match (match_pair_name name) xs end.
Proof. exact (find_map_value (match_pair_name name) xs t). Qed.

Lemma get_value_build xs t key : is_cons t = false ->
  get_value (build xs t) key = match xs with [] => None | _ => first_match (match_pair_key key) xs end.
Proof. exact (find_map_value (match_pair_key key) xs t). Qed.
