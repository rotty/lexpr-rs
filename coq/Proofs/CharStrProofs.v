(* Characters, strings and byte vectors read back from their printed text. *)
From Coq Require Import SpecFloat ZifyBool ZifyNat ZifyN.
Require Import Base Value Float PrintOptions Printer ParseOptions Utf8 Reader Scan Num NumberOps Parser.
Require Import ReaderProofs ScanProofs TextProofs TokenProofs NumTokenProofs.
Ltac Zify.zify_post_hook ::= Z.div_mod_to_equations.

Lemma next_or_eof_cons r b l : at_bytes r (b :: l) ->
  exists r', next_or_eof r = (Ok b, r') /\ at_bytes r' l /\ rk r' = rk r.
Proof.
  intros H. destruct (m_next_cons r b l H) as (r' & E & Ha & Hk).
  exists r'. unfold next_or_eof. rewrite (bind_ok _ _ _ _ _ E). unfold ret. auto.
Qed.
Lemma next_or_eof_char_cons r b l : at_bytes r (b :: l) ->
  exists r', next_or_eof_char r = (Ok b, r') /\ at_bytes r' l /\ rk r' = rk r.
Proof.
  intros H. destruct (m_next_cons r b l H) as (r' & E & Ha & Hk).
  exists r'. unfold next_or_eof_char. rewrite (bind_ok _ _ _ _ _ E). unfold ret. auto.
Qed.
Ltac step_noe :=
  match goal with
  | H : at_bytes ?r (?b :: ?l) |- context [bind next_or_eof _ ?r] =>
      let r' := fresh "r" in let E := fresh "E" in let Ha := fresh "Ha" in let Hk := fresh "Hk" in
      destruct (next_or_eof_cons r b l H) as (r' & E & Ha & Hk);
      rewrite (bind_ok _ _ _ _ _ E); clear E
  | H : at_bytes ?r (?b :: ?l) |- context [bind next_or_eof_char _ ?r] =>
      let r' := fresh "r" in let E := fresh "E" in let Ha := fresh "Ha" in let Hk := fresh "Hk" in
      destruct (next_or_eof_char_cons r b l H) as (r' & E & Ha & Hk);
      rewrite (bind_ok _ _ _ _ _ E); clear E
  end.

Definition hexval (c : N) : N := match decode_hex_val c with Some v => v | None => 0 end.
Definition hfold (acc : N) (ds : bytes) : N := fold_left (fun a c => a * 16 + hexval c) ds acc.
Definition is_lower_hex (c : N) : bool := in_range 48 57 c || in_range 97 102 c.
Definition all_lower_hex (ds : bytes) : Prop := Forall (fun c => is_lower_hex c = true) ds.

Lemma hfold_app acc a b : hfold acc (a ++ b) = hfold (hfold acc a) b.
Proof. unfold hfold. apply fold_left_app. Qed.
Lemma hfold_ge ds : forall acc, acc <= hfold acc ds.
Proof. exact (digits_value_ge 16 hexval ds eq_refl). Qed.

Lemma hexval_lower v : v < 16 -> is_lower_hex (hex_digit_lower v) = true /\ hexval (hex_digit_lower v) = v.
Proof.
  intros H. unfold hex_digit_lower, is_lower_hex, hexval, decode_hex_val, in_range.
  destruct (v <? 10) eqn:E.
  - replace ((48 <=? 48 + v) && (48 + v <=? 57)) with true by lia. split; [reflexivity|lia].
  - replace ((48 <=? 87 + v) && (87 + v <=? 57)) with false by lia.
    replace ((65 <=? 87 + v) && (87 + v <=? 70)) with false by lia.
    replace ((97 <=? 87 + v) && (87 + v <=? 102)) with true by lia. split; [reflexivity|lia].
Qed.

Lemma hex_digits_spec fuel : forall n acc, n < 2 ^ N.of_nat fuel ->
  exists ds, hex_digits_fuel (S fuel) n acc = ds ++ acc /\ ds <> [] /\ all_lower_hex ds /\ hfold 0 ds = n.
Proof.
  induction fuel as [|f IH]; intros n acc Hn.
  - assert (n = 0) by (change (2 ^ N.of_nat 0) with 1 in Hn; lia). subst n. exists [48]. cbn.
    repeat split; try discriminate. repeat constructor.
  - cbn [hex_digits_fuel]. destruct (hexval_lower (n mod 16) ltac:(lia)) as [Hl Hv16].
    destruct (n <? 16) eqn:E16.
    + exists [hex_digit_lower (n mod 16)]. repeat split; try discriminate.
      * constructor; [exact Hl|constructor].
      * unfold hfold; cbn [fold_left]. rewrite Hv16. lia.
    + assert (Hq : n / 16 < 2 ^ N.of_nat f).
      { rewrite Nat2N.inj_succ, N.pow_succ_r' in Hn. lia. }
      destruct (IH (n / 16) (hex_digit_lower (n mod 16) :: acc) Hq) as (ds & E & Hne & Hd & Hv).
      exists (ds ++ [hex_digit_lower (n mod 16)]). rewrite <- app_assoc. cbn [app]. repeat split.
      * exact E.
      * destruct ds; discriminate.
      * apply Forall_app. split; [exact Hd|]. constructor; [exact Hl|constructor].
      * rewrite hfold_app, Hv. unfold hfold; cbn [fold_left]. rewrite Hv16. lia.
Qed.

Lemma hex_of_N_spec n : exists ds, hex_of_N n = ds /\ ds <> [] /\ all_lower_hex ds /\ hfold 0 ds = n.
Proof.
  unfold hex_of_N. destruct (hex_digits_spec (N.size_nat n) n [] (size_nat_bound n)) as (ds & E & H).
  exists ds. rewrite E, app_nil_r. auto.
Qed.

Lemma lower_hex_facts c : is_lower_hex c = true ->
  decode_hex_val c = Some (hexval c) /\ is_delimiter_chr c = false.
Proof.
  unfold is_lower_hex, hexval, decode_hex_val, is_delimiter_chr, memb, in_range. cbn [existsb]. intros H.
  split; [|lia].
  destruct ((48 <=? c) && (c <=? 57)); [reflexivity|].
  destruct ((65 <=? c) && (c <=? 70)); [reflexivity|].
  destruct ((97 <=? c) && (c <=? 102)); [reflexivity|]. cbn in H. discriminate.
Qed.

Lemma delim_chr_of_delim_ok d rest : delim_ok (d :: rest) -> is_delimiter_chr d = true.
Proof. intros H. delim_cases H; reflexivity. Qed.

Lemma char_hex_loop ds : forall fuel r n rest, (length ds < fuel)%nat -> all_lower_hex ds -> delim_ok rest ->
  hfold n ds < cp_limit -> at_bytes r (ds ++ rest) ->
  forall first, (ds = [] -> first = false) ->
  exists r', r6rs_char_hex_loop fuel n first r = (Ok (Some (hfold n ds)), r') /\ at_bytes r' rest /\ rk r' = rk r.
Proof.
  induction ds as [|d ds IH]; intros fuel r n rest Hf Hd Hr Hmax Ha first Hfirst;
    (destruct fuel as [|f]; [cbn in Hf; lia|]); cbn [r6rs_char_hex_loop]; cbn [app] in Ha.
  - rewrite (Hfirst eq_refl). destruct rest as [|b rest].
    + step. exists r0. unfold ret. cbn [hfold fold_left]. repeat split; auto.
    + step. rewrite (delim_chr_of_delim_ok b rest Hr). exists r0. unfold ret. cbn [hfold fold_left]. repeat split; auto.
  - inversion Hd as [|? ? Hdig Hd']; subst. destruct (lower_hex_facts d Hdig) as [Hdec Hnd].
    step. rewrite Hnd. step. rewrite Hdec.
    change (hfold n (d :: ds)) with (hfold (n * 16 + hexval d) ds) in *.
    pose proof (hfold_ge ds (n * 16 + hexval d)) as Hge.
    assert (Elim : (cp_limit <=? n) = false) by (unfold cp_limit in *; lia). rewrite Elim.
    destruct (IH f r1 (n * 16 + hexval d) rest ltac:(cbn in Hf; lia) Hd' Hr Hmax Ha1 false ltac:(reflexivity))
      as (r2 & E & Ha2 & Hk2).
    exists r2. repeat split; auto; congruence.
Qed.

Lemma char_hex_loop_none fuel r n rest : (0 < fuel)%nat -> delim_ok rest -> at_bytes r rest ->
  exists r', r6rs_char_hex_loop fuel n true r = (Ok None, r') /\ at_bytes r' rest /\ rk r' = rk r.
Proof.
  intros Hf Hr Ha. destruct fuel as [|f]; [lia|]. cbn [r6rs_char_hex_loop]. destruct rest as [|b rest].
  - step. exists r0. unfold ret. auto.
  - step. rewrite (delim_chr_of_delim_ok b rest Hr). exists r0. unfold ret. auto.
Qed.

Lemma parse_char_spec fuel r c rest : is_scalar c = true -> (length (char_text c) < fuel)%nat -> delim_ok rest ->
  exists body, char_text c = 35 :: 92 :: body /\
    forall r1, at_bytes r1 (body ++ rest) -> rk r1 = rk r ->
    exists r', parse_r6rs_char fuel r1 = (Ok c, r') /\ at_bytes r' rest /\ rk r' = rk r.
Proof.
  intros Hs Hf Hr. unfold char_text in *. destruct ((32 <=? c) && (c <? 127)) eqn:Ep.
  - exists [c]. split; [reflexivity|]. intros r1 Ha Hk1. cbn [app] in Ha. unfold parse_r6rs_char.
    step_noe. destruct (c =? 120) eqn:Ex.
    + assert (c = 120) by lia. subst c.
      destruct (char_hex_loop_none fuel r0 0 rest ltac:(cbn in Hf; lia) Hr Ha0) as (r2 & E2 & Ha2 & Hk2).
      rewrite (bind_ok _ _ _ _ _ E2). exists r2. unfold ret. repeat split; auto; congruence.
    + replace (127 <? c) with false by lia. destruct rest as [|b rest].
      * step. exists r2. unfold ret. repeat split; auto; congruence.
      * step. rewrite (delim_chr_of_delim_ok b rest Hr). exists r2. unfold ret. repeat split; auto; congruence.
  - destruct (hex_of_N_spec c) as (ds & E & Hne & Hd & Hv). rewrite E in *.
    exists (120 :: ds). split; [reflexivity|]. intros r1 Ha Hk1. cbn [app] in Ha. unfold parse_r6rs_char.
    step_noe. change (120 =? 120) with true. cbv iota.
    assert (Hlim : hfold 0 ds < cp_limit) by (rewrite Hv; unfold is_scalar, cp_limit in *; lia).
    destruct (char_hex_loop ds fuel r0 0 rest ltac:(cbn in Hf; lia) Hd Hr Hlim Ha0 true
                ltac:(intros ->; contradiction)) as (r2 & E2 & Ha2 & Hk2).
    rewrite (bind_ok _ _ _ _ _ E2). unfold open_ended_char. rewrite Hv, Hs. exists r2. unfold ret. repeat split; auto; congruence.
Qed.

Section CharTokens.
  Variable alpha : N -> bool.
  Variable fast : bool.
  Variable std_parse : N -> Z -> f64.
  Local Notation ro := default_ro.
  Local Notation parse_token := (parse_token ro alpha fast std_parse).

  Theorem tok_char fuel r c rest : is_scalar c = true -> (length (char_text c) < fuel)%nat -> delim_ok rest ->
    at_bytes r (char_text c ++ rest) -> peeked r ->
    exists r', parse_token fuel 35 r = (Ok (TChar c), r') /\ at_bytes r' rest /\ rk r' = rk r.
  Proof.
    intros Hs Hf Hr Ha Hp. destruct (parse_char_spec fuel r c rest Hs Hf Hr) as (body & Eb & Hbody).
    rewrite Eb in Ha. cbn [app] in Ha. rewrite token_hash. unfold hash_arm. step. step. cbn [N.eqb Pos.eqb andb].
    destruct (Hbody r1 Ha1 ltac:(congruence)) as (r2 & E2 & Ha2 & Hk2).
    rewrite (bind_ok _ _ _ _ _ E2). exists r2. unfold ret. auto.
  Qed.
End CharTokens.

(* evaluate comparisons between literals *)
Ltac eval_cmp :=
  repeat match goal with
         | |- context [N.eqb ?a ?b] =>
             let v := eval vm_compute in (N.eqb a b) in
             match v with true => change (N.eqb a b) with true | false => change (N.eqb a b) with false end
         | |- context [in_range ?a ?b ?c] =>
             let v := eval vm_compute in (in_range a b c) in
             match v with true => change (in_range a b c) with true | false => change (in_range a b c) with false end
         | |- context [N.ltb ?a ?b] =>
             let v := eval vm_compute in (N.ltb a b) in
             match v with true => change (N.ltb a b) with true | false => change (N.ltb a b) with false end
         end; cbv iota.

Lemma hex_upper_facts v : v < 16 ->
  decode_hex_val (hex_digit_upper v) = Some v /\ (hex_digit_upper v =? 59) = false.
Proof.
  intros H. unfold hex_digit_upper, decode_hex_val, in_range. destruct (v <? 10) eqn:E.
  - replace ((48 <=? 48 + v) && (48 + v <=? 57)) with true by lia. split; [f_equal; lia|lia].
  - replace ((48 <=? 55 + v) && (55 + v <=? 57)) with false by lia.
    replace ((65 <=? 55 + v) && (55 + v <=? 70)) with true by lia. split; [f_equal; lia|lia].
Qed.

Lemma escape_cases b e : escape_of b = Some e ->
  In (b, e) [(7, EAlert); (8, EBackspace); (9, ETab); (10, ELineFeed); (13, ECarriageReturn); (34, EQuote);
             (92, EReverseSolidus)] \/ e = EAsciiControl b /\ b < 128.
Proof.
  unfold escape_of. cbn [In]. intros H.
  destruct (b =? 7) eqn:E7; [assert (b = 7) by lia; intuition congruence|].
  destruct (b =? 8) eqn:E8; [assert (b = 8) by lia; intuition congruence|].
  destruct (b =? 9) eqn:E9; [assert (b = 9) by lia; intuition congruence|].
  destruct (b =? 10) eqn:E10; [assert (b = 10) by lia; intuition congruence|].
  destruct (b =? 13) eqn:E13; [assert (b = 13) by lia; intuition congruence|].
  destruct (b =? 34) eqn:E34; [assert (b = 34) by lia; intuition congruence|].
  destruct (b =? 92) eqn:E92; [assert (b = 92) by lia; intuition congruence|].
  destruct ((b <? 32) || (b =? 127)) eqn:Ec; [|discriminate]. right. split; [congruence|lia].
Qed.

Lemma escape_roundtrip b e : escape_of b = Some e ->
  exists body, esc_bytes b = 92 :: body /\
    forall fuel r tail, (4 < fuel)%nat -> at_bytes r (body ++ tail) ->
    exists r', parse_r6rs_escape fuel r = (Ok [b], r') /\ at_bytes r' tail /\ rk r' = rk r.
Proof.
  intros He. unfold esc_bytes. rewrite He. destruct (escape_cases b e He) as [Hin|[-> Hb]].
  { cbn [In] in Hin.
    repeat (destruct Hin as [[= <- <-]|Hin];
            [eexists; split; [reflexivity|]; intros fuel r tail Hf Ha; cbn [app] in Ha;
             unfold parse_r6rs_escape; step_noe; eval_cmp; eexists; unfold ret; split; [reflexivity|auto]|]).
    contradiction. }
  cbn [write_r6rs_char_escape flatten wall app].
  destruct (hex_upper_facts (b / 16) ltac:(lia)) as [Hd1 Hs1].
  destruct (hex_upper_facts (b mod 16) ltac:(lia)) as [Hd2 Hs2].
  eexists. split; [cbn; reflexivity|]. intros fuel r tail Hf Ha. cbn [app] in Ha.
  unfold parse_r6rs_escape. step_noe. eval_cmp.
  unfold decode_r6rs_hex_escape.
  destruct fuel as [|[|[|[|f]]]]; try lia.
  assert (exists r', hex_escape_loop (S (S (S (S f)))) 0 r0 = (Ok b, r') /\ at_bytes r' tail /\ rk r' = rk r0)
    as (r' & E' & Ha' & Hk').
  { cbn [hex_escape_loop]. step_noe. rewrite Hs1, Hd1. change (cp_limit <=? 0) with false. cbv iota.
    step_noe. rewrite Hs2, Hd2. replace (cp_limit <=? 0 * 16 + b / 16) with false by (unfold cp_limit; lia).
    step_noe. change (59 =? 59) with true. cbv iota. exists r3. unfold ret.
    split; [f_equal; f_equal; lia|]. split; [auto|congruence]. }
  rewrite (bind_ok _ _ _ _ _ E'). replace (is_scalar b) with true by (unfold is_scalar; lia).
  unfold utf8_encode. replace (b <? 128) with true by lia. exists r'. unfold ret. repeat split; auto; congruence.
Qed.

Lemma escape_none_plain b : escape_of b = None -> esc_bytes b = [b] /\ (b =? 34) = false /\ (b =? 92) = false.
Proof.
  intros H. unfold esc_bytes. rewrite H. split; [reflexivity|]. unfold escape_of in H.
  destruct (b =? 7); [discriminate|]. destruct (b =? 8); [discriminate|]. destruct (b =? 9); [discriminate|].
  destruct (b =? 10); [discriminate|]. destruct (b =? 13); [discriminate|].
  destruct (b =? 34); [discriminate|]. destruct (b =? 92); [discriminate|]. auto.
Qed.

Definition str_body (s : bytes) : bytes := flat_map esc_bytes s.

Lemma r6rs_str_io_spec s : forall fuel scratch r rest, (length (str_body s) + 5 < fuel)%nat ->
  at_bytes r (str_body s ++ 34 :: rest) ->
  exists r', r6rs_str_io fuel scratch r = (Ok (scratch ++ s), r') /\ at_bytes r' rest /\ rk r' = rk r.
Proof.
  induction s as [|b s IH]; intros fuel scratch r rest Hf Ha;
    (destruct fuel as [|f]; [lia|]); cbn [r6rs_str_io]; cbn [str_body flat_map app] in Ha, Hf.
  - step_noe. change (34 =? 34) with true. cbv iota. exists r0. unfold ret. rewrite app_nil_r. auto.
  - fold (str_body s) in *. rewrite app_length in Hf. destruct (escape_of b) as [e|] eqn:Ee.
    + destruct (escape_roundtrip b e Ee) as (body & Eb & Hbody). rewrite Eb in *. cbn [app length] in Ha, Hf.
      step_noe. change (92 =? 34) with false. change (92 =? 92) with true. cbv iota.
      rewrite <- app_assoc in Ha0.
      destruct (Hbody f r0 (str_body s ++ 34 :: rest) ltac:(lia) Ha0) as (r1 & E1 & Ha1 & Hk1).
      rewrite (bind_ok _ _ _ _ _ E1).
      destruct (IH f (scratch ++ [b]) r1 rest ltac:(lia) Ha1) as (r2 & E2 & Ha2 & Hk2).
      exists r2. rewrite E2, <- app_assoc. repeat split; auto; congruence.
    + destruct (escape_none_plain b Ee) as (Eb & E34 & E92). rewrite Eb in *. cbn [app length] in Ha, Hf.
      step_noe. rewrite E34, E92.
      destruct (IH f (scratch ++ [b]) r0 rest ltac:(lia) Ha0) as (r2 & E2 & Ha2 & Hk2).
      exists r2. rewrite E2, <- app_assoc. repeat split; auto; congruence.
Qed.

(* SliceRead: runs of plain bytes are copied in one piece *)
Definition plain_run (p : bytes) : Prop := Forall (fun b => escape_of b = None) p.

Lemma span_plain_run p : forall t tail acc, plain_run p -> t = 92 \/ t = 34 ->
  span_plain (bytes_events (p ++ t :: tail)) acc = (acc ++ p, bytes_events (t :: tail)).
Proof.
  induction p as [|b p IH]; intros t tail acc Hp Ht; cbn [app bytes_events map span_plain].
  - replace ((t =? 92) || (t =? 34)) with true by lia. rewrite app_nil_r. reflexivity.
  - inversion Hp as [|? ? Hb Hp']; subst. destruct (escape_none_plain b Hb) as (_ & E34 & E92).
    rewrite E34, E92. cbn [orb]. fold (bytes_events (p ++ t :: tail)).
    rewrite (IH t tail (acc ++ [b]) Hp' Ht), <- app_assoc. reflexivity.
Qed.

Lemma consume_at r b l : at_bytes (consume r b (bytes_events l)) l /\ rk (consume r b (bytes_events l)) = rk r.
Proof. unfold consume, at_bytes. destruct (advance (rline r) (rcol r) b). cbn. auto. Qed.

Lemma span_run r p t tail : plain_run p -> t = 92 \/ t = 34 -> at_bytes r (p ++ t :: tail) ->
  exists rest r', span_plain (rinput r) [] = (p, EByte t :: rest) /\
    consume (advance_over r p (EByte t :: rest)) t rest = r' /\ at_bytes r' tail /\ rk r' = rk r.
Proof.
  intros Hp Ht Ha. unfold at_bytes in Ha. rewrite Ha, (span_plain_run p t tail [] Hp Ht).
  destruct (advance_over_at r p (t :: tail)) as [_ Hk1].
  destruct (consume_at (advance_over r p (bytes_events (t :: tail))) t tail) as [Ha2 Hk2].
  eexists (bytes_events tail), _. split; [reflexivity|]. split; [reflexivity|]. split; [exact Ha2|exact (eq_trans Hk2 Hk1)].
Qed.

Lemma r6rs_slice_step f scratch r p t tail : plain_run p -> t = 92 \/ t = 34 -> at_bytes r (p ++ t :: tail) ->
  exists r', r6rs_str_slice (S f) scratch r =
             (if t =? 34 then ret (scratch ++ p)
              else e <- parse_r6rs_escape f ;; r6rs_str_slice f (scratch ++ p ++ e)) r' /\
             at_bytes r' tail /\ rk r' = rk r.
Proof.
  intros Hp Ht Ha. destruct (span_run r p t tail Hp Ht Ha) as (rest & r' & E & Er & H).
  exists r'. cbn [r6rs_str_slice]. rewrite E, Er. destruct (t =? 34); auto.
Qed.

(* [p] is the run of plain bytes read so far *)
Lemma r6rs_str_slice_spec s : forall p fuel scratch r rest, plain_run p -> (length (str_body s) + 5 < fuel)%nat ->
  at_bytes r (p ++ str_body s ++ 34 :: rest) ->
  exists r', r6rs_str_slice fuel scratch r = (Ok (scratch ++ p ++ s), r') /\ at_bytes r' rest /\ rk r' = rk r.
Proof.
  induction s as [|b s IH]; intros p fuel scratch r rest Hp Hf Ha; cbn [str_body flat_map app] in Ha, Hf.
  - destruct fuel as [|f]; [lia|].
    destruct (r6rs_slice_step f scratch r p 34 rest Hp (or_intror eq_refl) Ha) as (r1 & E1 & Ha1 & Hk1).
    exists r1. rewrite E1, app_nil_r. auto.
  - fold (str_body s) in *. rewrite app_length in Hf. destruct (escape_of b) as [e|] eqn:Ee.
    + destruct (escape_roundtrip b e Ee) as (body & Eb & Hbody). rewrite Eb in *.
      cbn [app length] in Ha, Hf. rewrite <- app_assoc in Ha. destruct fuel as [|f]; [lia|].
      destruct (r6rs_slice_step f scratch r p 92 _ Hp (or_introl eq_refl) Ha) as (r1 & E1 & Ha1 & Hk1).
      destruct (Hbody f r1 _ ltac:(lia) Ha1) as (r2 & E2 & Ha2 & Hk2).
      destruct (IH [] f (scratch ++ p ++ [b]) r2 rest (Forall_nil _) ltac:(lia) Ha2) as (r3 & E3 & Ha3 & Hk3).
      exists r3. rewrite E1. change (92 =? 34) with false. cbv iota.
      rewrite (bind_ok _ _ _ _ _ E2), E3, <- !app_assoc. repeat split; auto; congruence.
    + destruct (escape_none_plain b Ee) as (Eb & _). rewrite Eb in *. cbn [app length] in Ha, Hf.
      destruct (IH (p ++ [b]) fuel scratch r rest) as (r' & E & H);
        [apply Forall_app; split; [exact Hp|repeat constructor; exact Ee]|lia|rewrite <- app_assoc; exact Ha|].
      exists r'. rewrite E, <- app_assoc. auto.
Qed.

Lemma parse_r6rs_str_spec s fuel r rest : utf8_valid s = true -> (length (str_body s) + 5 < fuel)%nat ->
  at_bytes r (str_body s ++ 34 :: rest) ->
  exists r', parse_r6rs_str_rd fuel r = (Ok s, r') /\ at_bytes r' rest /\ rk r' = rk r.
Proof.
  intros Hv Hf Ha. unfold parse_r6rs_str_rd. destruct (rk r) eqn:Ek.
  1, 2: destruct (r6rs_str_slice_spec s [] fuel [] r rest (Forall_nil _) Hf Ha) as (r' & E & Ha' & Hk');
    rewrite (bind_ok _ _ _ _ _ E); cbn [app]; unfold finish_str, Scan.as_str; rewrite Hk', Ek, ?Hv; exists r'; unfold ret;
    repeat split; auto; congruence.
  destruct (r6rs_str_io_spec s fuel [] r rest Hf Ha) as (r' & E & Ha' & Hk').
  rewrite (bind_ok _ _ _ _ _ E). cbn [app]. unfold Scan.as_str. rewrite Hv. exists r'. unfold ret. repeat split; auto; congruence.
Qed.

Section StrTokens.
  Variable alpha : N -> bool.
  Variable fast : bool.
  Variable std_parse : N -> Z -> f64.
  Local Notation ro := default_ro.
  Local Notation parse_token := (parse_token ro alpha fast std_parse).

  Theorem tok_string fuel r s rest : utf8_valid s = true -> (length (str_text s) + 5 < fuel)%nat ->
    at_bytes r (str_text s ++ rest) -> peeked r ->
    exists r', parse_token fuel 34 r = (Ok (TString s), r') /\ at_bytes r' rest /\ rk r' = rk r.
  Proof.
    intros Hv Hf Ha Hp. unfold str_text in *. fold (str_body s) in *. cbn [app] in Ha. rewrite <- app_assoc in Ha. cbn [app] in Ha.
    assert (E : parse_token fuel 34 = (eat_char ;;; s <- parse_r6rs_str_rd fuel ;; ret (TString s))) by reflexivity.
    rewrite E. step.
    destruct (parse_r6rs_str_spec s fuel r0 rest Hv ltac:(rewrite !app_length in Hf; cbn [length] in Hf; lia) Ha0)
      as (r1 & E1 & Ha1 & Hk1).
    rewrite (bind_ok _ _ _ _ _ E1). exists r1. unfold ret. repeat split; auto; congruence.
  Qed.
End StrTokens.

Lemma digit_starts_datum d : is_digit d = true -> starts_datum d.
Proof. unfold is_digit, in_range, starts_datum, is_ws, memb. cbn [existsb]. intros H. split; lia. Qed.

Lemma close_starts_datum : starts_datum 41.
Proof. split; [reflexivity|discriminate]. Qed.

Section ByteVec.
  Variable fast : bool.
  Variable std_parse : N -> Z -> f64.

  Lemma parse_number_digits fuel r d ds rest : (length (d :: ds) < fuel)%nat -> all_digits (d :: ds) -> delim_ok rest ->
    dfold 0 (d :: ds) <= u64_MAX -> at_bytes r ((d :: ds) ++ rest) ->
    exists r', parse_number fast std_parse fuel r = (Ok (PosInt (dfold 0 (d :: ds))), r') /\
               at_bytes r' rest /\ rk r' = rk r.
  Proof.
    intros Hf Hd Hr Hmax Ha. pose proof (Forall_inv Hd) as Hdig. cbv beta in Hdig.
    pose proof Hdig as Hdig'. unfold is_digit, in_range in Hdig'.
    unfold parse_number, parse_radix_literal. cbn [app] in Ha.
    step. replace (d =? 35) with false by lia. step.
    replace (d =? 45) with false by lia. replace (d =? 43) with false by lia.
    destruct (num_token_digits fast std_parse fuel r1 true d ds rest Hf Hd Hr Hmax Ha1) as (r2 & E & Ha2 & Hk2).
    exists r2. rewrite E. unfold int_result. repeat split; auto; congruence.
  Qed.

  Definition octets_ok (bs : bytes) : Prop := Forall (fun o => o < 256) bs.
End ByteVec.
