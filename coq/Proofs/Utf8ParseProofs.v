(* C17, parser side: from byte-slice and stream input every str inside a
   returned value is well-formed UTF-8. (For &str input the code skips the
   check, relying on the type of its input; see Props/C17.v.) *)
From Coq Require Import SpecFloat Lia ZifyBool ZifyNat ZifyN.
Require Import Base Value Float PrintOptions ParseOptions Utf8 Reader Scan Num NumberOps Parser.
Require Import RelFramework Utf8Proofs Utf8PrintProofs DepthBoundProofs DatumProofs.

Definition Rrk (r : reader) (x : option perr) (r' : reader) : Prop := rk r' = rk r.

Lemma Rrk_ret r : Rrk r None r.  Proof. reflexivity. Qed.
Lemma Rrk_seq r r1 x r2 : Rrk r None r1 -> Rrk r1 x r2 -> Rrk r x r2.
Proof. unfold Rrk. congruence. Qed.
Lemma Rrk_fuel r : Rrk r (Some EFuel) r.  Proof. reflexivity. Qed.
Lemma Rrk_rec1 r e r1 x r2 : Rrk r (Some e) r1 -> Rrk r1 x r2 -> Rrk r (Some e) r2.
Proof. unfold Rrk. congruence. Qed.
Lemma Rrk_rec2 r e r1 e' r2 : Rrk r (Some e) r1 -> Rrk r1 (Some e') r2 -> Rrk r (Some e') r2.
Proof. unfold Rrk. congruence. Qed.

Lemma discard_rk r : rk (r_discard r) = rk r.
Proof.
  unfold r_discard. destruct (rk r) eqn:E; try destruct (rpending r); try congruence;
    destruct (rinput r) as [|[b| |e] l]; try congruence; rewrite consume_rk; congruence.
Qed.

Lemma rk_peek : sat Rrk peek.
Proof.
  intros r. unfold peek, r_peek, R, Rrk. destruct (rpending r).
  - destruct (rinput r) as [|[b| |e] l]; reflexivity.
  - destruct (skip_intr (rinput r)) as [|[b| |e] l]; reflexivity.
Qed.
Lemma rk_next : sat Rrk next_char.
Proof.
  intros r. unfold next_char, r_next, R, Rrk.
  destruct (if rpending r then rinput r else skip_intr (rinput r)) as [|[b| |e] l]; cbn [fst snd]; try reflexivity.
  apply consume_rk.
Qed.
Lemma rk_eat : sat Rrk eat_char.
Proof. intros r. unfold eat_char, R, Rrk. cbn [fst snd]. apply discard_rk. Qed.
Lemma rk_error A c : sat Rrk (@error A c).
Proof. intros r. unfold error, R, Rrk. destruct (r_position r). reflexivity. Qed.
Lemma rk_peek_error A c : sat Rrk (@peek_error A c).
Proof. intros r. unfold peek_error, R, Rrk. destruct (r_peek_position r). reflexivity. Qed.
Lemma rk_error_consume A c : sat Rrk (@error_consume A c).
Proof. intros r. unfold error_consume, peek_error, R, Rrk. destruct (r_peek_position r). cbn [fst snd]. apply discard_rk. Qed.
Lemma rk_take_run : sat Rrk take_run.
Proof.
  intros r. unfold take_run, R, Rrk. destruct (span_plain (rinput r) []) as [run rest].
  destruct rest as [|[b| |e] rest']; cbn [fst snd]; rewrite ?consume_rk, advance_over_rk; reflexivity.
Qed.
Lemma rk_take_symbol : sat Rrk take_symbol_run.
Proof.
  intros r. unfold take_symbol_run, R, Rrk. destruct (span_symbol (rinput r) []) as [run rest].
  cbn [fst snd]. apply advance_over_rk.
Qed.
Ltac rk_prim :=
  first [ exact Rrk_ret | exact Rrk_seq | exact Rrk_fuel | exact Rrk_rec1 | exact Rrk_rec2 | exact rk_peek | exact rk_next
        | exact rk_eat | exact rk_error | exact rk_peek_error | exact rk_error_consume | exact rk_take_run | exact rk_take_symbol ].

(* [sat Rrk m] / [psat Rrk m] for a model function, by its lemma of the generic traversal *)
Ltac rk_by lem := apply (lem Rrk); rk_prim.

Definition ens {A} (k : src_kind) (m : M A) (post : A -> Prop) : Prop :=
  forall r, rk r = k -> match fst (m r) with Ok a => post a | Err _ => True end.

Lemma ens_always {A} k (m : M A) (q : A -> Prop) : always q m -> ens k m q.
Proof. intros H r _. specialize (H r). destruct (m r) as [[a|e] r1]; exact H. Qed.
Lemma ens_bind {A B} k (m : M A) (f : A -> M B) (p : A -> Prop) (q : B -> Prop) :
  sat Rrk m -> ens k m p -> (forall a, p a -> ens k (f a) q) -> ens k (bind m f) q.
Proof.
  intros Hs Hm Hf r Hk. unfold bind. specialize (Hs r). specialize (Hm r Hk). unfold R, Rrk in Hs.
  destruct (m r) as [[a|e] r1]; cbn [fst snd] in *; [|exact I]. apply (Hf a Hm r1). congruence.
Qed.
Lemma ens_any {A} k (m : M A) : ens k m (fun _ => True).
Proof. intros r _. destruct (fst (m r)); exact I. Qed.
Lemma ens_ret {A} k (a : A) (q : A -> Prop) : q a -> ens k (ret a) q.
Proof. intros H r _. exact H. Qed.
Lemma ens_err {A} k c (q : A -> Prop) : ens k (error c) q /\ ens k (peek_error c) q.
Proof. split; apply ens_always, always_err. Qed.
Lemma ens_bind_any {A B} k (m : M A) (f : A -> M B) (q : B -> Prop) :
  sat Rrk m -> (forall a, ens k (f a) q) -> ens k (bind m f) q.
Proof. intros Hs Hf. apply (ens_bind k m f (fun _ => True) q Hs (ens_any k m)). intros a _. apply Hf. Qed.

Definition valid (s : bytes) : Prop := utf8_valid s = true.

Lemma always_as_str b : always valid (Scan.as_str b).
Proof. intros r. unfold Scan.as_str. destruct (utf8_valid b) eqn:E; [exact E|]. unfold error. destruct (r_position r). exact I. Qed.

Lemma ens_finish_str k b : k <> SrcStr -> ens k (finish_str b) valid.
Proof.
  intros Hk r Hr. unfold finish_str. rewrite Hr. destruct k; [contradiction| |]; apply (ens_always _ _ _ (always_as_str b) r Hr).
Qed.

(* Read::parse_symbol and Read::parse_r6rs_str: scan, then check (the str source, which does not check, is excluded) *)
Lemma ens_scanned k (io sl m : M bytes) : k <> SrcStr ->
  (forall r, m r = match rk r with SrcIo => (b <- io ;; Scan.as_str b) r | _ => (b <- sl ;; finish_str b) r end) ->
  sat Rrk io -> sat Rrk sl -> ens k m valid.
Proof.
  intros Hk E Hio Hsl r Hr. rewrite E, Hr. destruct k; [contradiction| |].
  - refine (ens_bind_any SrcSlice _ _ valid Hsl _ r Hr). intros b. apply ens_finish_str. discriminate.
  - refine (ens_bind_any SrcIo _ _ valid Hio _ r Hr). intros b. apply ens_always, always_as_str.
Qed.

Lemma ens_parse_symbol_rd k fuel scratch : k <> SrcStr -> ens k (parse_symbol_rd fuel scratch) valid.
Proof.
  intros Hk. apply (ens_scanned k (scan_symbol_io fuel scratch) (scan_symbol_slice scratch) _ Hk); [reflexivity|rk_by sat_scan_symbol_io|rk_by sat_scan_symbol_slice].
Qed.

Lemma ens_parse_r6rs_str_rd k fuel : k <> SrcStr -> ens k (parse_r6rs_str_rd fuel) valid.
Proof.
  intros Hk. apply (ens_scanned k (r6rs_str_io fuel []) (r6rs_str_slice fuel []) _ Hk); [reflexivity|rk_by sat_r6rs_str_io|rk_by sat_r6rs_str_slice].
Qed.

(* Emacs Lisp strings are checked by every source *)
Definition elisp_valid (e : elisp_str) : Prop := match e with ElMultibyte s => valid s | ElUnibyte _ => True end.

Lemma always_elisp_finish fl scratch : always elisp_valid (elisp_finish fl scratch).
Proof.
  unfold elisp_finish. destruct (seen_ub fl && negb (seen_mb fl || seen_na fl))%bool; [apply always_ret; exact I|].
  apply (always_bind valid); [apply always_as_str|]. intros b Hb. apply always_ret. exact Hb.
Qed.

Lemma always_elisp_str_io fuel : forall fl scratch, always elisp_valid (elisp_str_io fuel fl scratch).
Proof.
  induction fuel as [|f IH]; intros fl scratch; cbn [elisp_str_io]; [apply always_fuel|].
  apply always_skip. intros ch. destruct (ch =? 34); [apply always_elisp_finish|].
  destruct (ch =? 92); [|apply IH]. apply always_skip. intros x. apply IH.
Qed.

Lemma always_elisp_str_slice fuel : forall fl scratch, always elisp_valid (elisp_str_slice fuel fl scratch).
Proof.
  induction fuel as [|f IH]; intros fl scratch; [apply always_fuel|].
  eapply always_ext; [intros r; apply elisp_str_slice_eq|]. cbv zeta.
  apply always_skip. intros p. destruct (snd p) as [b|]; [|apply always_err].
  destruct (b =? 34); [apply always_elisp_finish|]. apply always_skip. intros x. apply IH.
Qed.

Lemma always_parse_elisp_str_rd fuel : always elisp_valid (parse_elisp_str_rd fuel).
Proof.
  intros r. unfold parse_elisp_str_rd. cbv beta zeta. destruct (rk r); first [apply always_elisp_str_slice|apply always_elisp_str_io].
Qed.

Definition tok_valid (t : token) : Prop :=
  match t with TSymbol s | TKeyword s | TString s | TQuotation s => valid s | _ => True end.

Lemma ends_with_colon_split name : ends_with_colon name = true -> name = removelast name ++ [58].
Proof.
  unfold ends_with_colon. intros H. destruct name as [|x name] using rev_ind; [discriminate|].
  rewrite rev_unit in H. destruct (N.eq_dec x 58) as [->|Hne].
  - now rewrite removelast_last.
  - (* ends_with_colon matches on the numeral 58, so x <> 58 is refuted by running through the bits of 58 *)
    destruct x as [|p]; try discriminate. exfalso.
    repeat (destruct p as [p|p|]; try discriminate; try (apply Hne; reflexivity)).
Qed.

Lemma symbol_token_valid ro name : valid name -> tok_valid (symbol_token ro name).
Proof.
  intros Hv. unfold symbol_token.
  destruct (ro_kw_postfix ro && (1 <? length name)%nat && ends_with_colon name)%bool eqn:E.
  - cbn [tok_valid]. assert (Hc : ends_with_colon name = true) by (destruct (ends_with_colon name); [reflexivity|rewrite Bool.andb_false_r in E; discriminate]).
    pose proof (ends_with_colon_split name Hc) as Es. unfold valid in *. rewrite Es in Hv.
    apply (utf8_valid_drop_last_ascii _ 58); [lia|exact Hv].
  - destruct (_ && beq_bytes name (s2b "nil"))%bool; [destruct (ro_nil ro); cbn; auto|].
    destruct (_ && beq_bytes name (s2b "t"))%bool; cbn; auto.
Qed.

Section TokValid.
  Variable ro : parse_options.
  Variable alpha : N -> bool.
  Variable fast : bool.
  Variable std_parse : N -> Z -> f64.
  Variable k : src_kind.
  Hypothesis Hk : k <> SrcStr.

  Lemma ens_symbol_arm fuel scratch (mk : bytes -> token) : (forall s, valid s -> tok_valid (mk s)) ->
    ens k (s <- parse_symbol_rd fuel scratch ;; ret (mk s)) tok_valid.
  Proof.
    intros Hmk. apply (ens_bind k _ _ valid tok_valid); [rk_by sat_parse_symbol_rd|apply ens_parse_symbol_rd; exact Hk|].
    intros s Hs. apply ens_ret, Hmk, Hs.
  Qed.

  Lemma ens_parse_token fuel b : ens k (parse_token ro alpha fast std_parse fuel b) tok_valid.
  Proof.
    unfold parse_token.
    destruct (b =? 35).
    { apply ens_bind_any; [rk_prim|]. intros _. apply ens_bind_any; [rk_prim|]. intros o. destruct o as [c|]; [|apply ens_err].
      repeat match goal with
             | |- ens _ (if ?c then _ else _) _ => destruct c
             end;
        try (apply ens_always; solve [alw]); [apply (ens_symbol_arm fuel [] TKeyword)|apply (ens_symbol_arm fuel _ TSymbol)]; auto. }
    destruct ((b =? 45) || (b =? 43))%bool.
    { apply ens_bind_any; [rk_prim|]. intros _. apply ens_bind_any; [rk_by sat_peek_or_null|]. intros nx.
      destruct (_ || _)%bool; [apply ens_symbol_arm, symbol_token_valid|apply ens_always; alw]. }
    destruct (is_digit b).
    { destruct (ro_digit ro); [|apply ens_always; alw].
      apply (ens_bind k _ _ valid tok_valid); [rk_by sat_parse_symbol_rd|apply ens_parse_symbol_rd; exact Hk|]. intros s Hs.
      destruct (number_of_symbol fast std_parse fuel s); apply ens_ret; [exact I|apply symbol_token_valid; exact Hs]. }
    destruct (b =? 34).
    { apply ens_bind_any; [rk_prim|]. intros _. destruct (ro_string ro).
      - apply (ens_bind k _ _ valid tok_valid); [rk_by sat_parse_r6rs_str_rd|apply ens_parse_r6rs_str_rd; exact Hk|]. intros s Hs. apply ens_ret. exact Hs.
      - apply (ens_bind k _ _ elisp_valid tok_valid); [rk_by sat_parse_elisp_str_rd|apply ens_always, always_parse_elisp_str_rd|].
        intros e He. destruct e; apply ens_ret; [exact I|exact He]. }
    destruct (b =? 40); [apply ens_always; alw|].
    destruct (b =? 91); [apply ens_always; alw|].
    destruct (b =? 58).
    { destruct (ro_kw_prefix ro); [apply ens_bind_any; [rk_prim|]; intros _|]; apply (ens_symbol_arm fuel []); auto. }
    destruct (is_ascii_alpha b); [apply ens_symbol_arm, symbol_token_valid|].
    destruct ((b =? 63) && _)%bool; [apply ens_always; alw|].
    destruct (b =? 39); [apply ens_always; alw|].
    destruct (b =? 96); [apply ens_always; alw|].
    destruct (b =? 44); [apply ens_always; alw|].
    destruct (127 <? b).
    { apply ens_bind_any; [rk_prim|]. intros _. apply ens_bind_any; [rk_by sat_decode_utf8_sequence_b|]. intros r.
      destruct (negb (alpha (snd r))); [apply ens_err|apply ens_symbol_arm, symbol_token_valid]. }
    destruct (memb b SYMBOL_EXTENDED); [apply ens_symbol_arm, symbol_token_valid|].
    intros r _. unfold peek_error. destruct (r_peek_position r). exact I.
  Qed.
End TokValid.

Definition kind (k : src_kind) (r : reader) : Prop := rk r = k.

Lemma kind_liftR {A} k (m : M A) (q : A -> Prop) : sat Rrk m -> ens k m q -> pinv (kind k) nopre (liftR m) q.
Proof.
  intros Hs H s Hk _. unfold liftR. specialize (Hs (rd s)). specialize (H (rd s) Hk). unfold R, Rrk, kind in *.
  destruct (m (rd s)) as [[a|e] r']; cbn [fst snd rd] in *; [|exact I]. split; [congruence|exact H].
Qed.
Lemma kind_skipR {A B} k (m : M A) (f : A -> PM B) (q : B -> Prop) :
  sat Rrk m -> (forall a, pinv (kind k) nopre (f a) q) -> pinv (kind k) nopre (pbind (liftR m) f) q.
Proof. intros Hs. apply pinv_skip, (kind_liftR k m _ Hs (ens_any k m)). Qed.

Lemma strs_valid_build acc d : Forall strs_valid acc -> strs_valid d -> strs_valid (build acc d).
Proof. induction 1 as [|x acc Hx Hacc IH]; intros Hd; cbn [build strs_valid]; auto. Qed.
Lemma strs_valid_vector l : Forall strs_valid l -> strs_valid (Vector l).
Proof. induction 1 as [|x l Hx Hl IH]; cbn [strs_valid]; auto. Qed.

Lemma symbol_value_valid ro name : valid name -> strs_valid (symbol_value ro name).
Proof.
  intros H. pose proof (symbol_token_valid ro name H) as Ht. unfold symbol_value.
  destruct (symbol_token ro name); cbn [strs_valid tok_valid] in *; auto.
Qed.

Definition opt_valid (o : option value) : Prop := match o with Some v => strs_valid v | None => True end.

Section ValuesValid.
  Variable ro : parse_options.
  Variable alpha : N -> bool.
  Variable fast : bool.
  Variable std_parse : N -> Z -> f64.
  Variable k : src_kind.
  Hypothesis Hk : k <> SrcStr.
  Local Notation next_value := (next_value ro alpha fast std_parse).
  Local Notation parse_list := (parse_list ro alpha fast std_parse).
  Local Notation parse_vector := (parse_vector ro alpha fast std_parse).

  Theorem values_valid fuel :
    pinv (kind k) nopre (next_value fuel) opt_valid /\
    (forall t acc, Forall strs_valid acc -> pinv (kind k) nopre (parse_list fuel t acc) strs_valid) /\
    (forall t acc, Forall strs_valid acc -> pinv (kind k) nopre (parse_vector fuel t acc) (Forall strs_valid)).
  Proof.
    induction fuel as [|f (IHv & IHl & IHvec)].
    - split; [|split]; intros; cbn [Parser.next_value Parser.parse_list Parser.parse_vector]; apply pinv_fail.
    - split; [|split]; intros; cbn [Parser.next_value Parser.parse_list Parser.parse_vector]; fold next_value parse_list parse_vector.
      + apply kind_skipR; [rk_by sat_parse_whitespace|]. intros o. destruct o as [b|]; [|apply pinv_ret; exact I].
        apply (pinv_bind _ _ _ _ tok_valid opt_valid); [apply kind_liftR; [rk_by sat_parse_token|apply ens_parse_token; exact Hk]|].
        intros tok Ht. destruct tok; cbn [tok_valid] in Ht; try (apply pinv_ret; cbn [opt_valid strs_valid]; auto; fail).
        * (* list *)
          apply pinv_skip; [apply pinv_same, same_enter|]. intros _.
          apply (pinv_nest_seq _ _ _ _ _ strs_valid opt_valid); [apply IHl; constructor|apply kind_liftR; [rk_by sat_end_seq|apply ens_any]|].
          intros l Hl. apply pinv_ret. exact Hl.
        * (* quotation *)
          apply pinv_skip; [apply pinv_same, same_enter|]. intros _.
          apply (pinv_nest_quote _ _ _ _ opt_valid opt_valid); [exact IHv|].
          intros o Ho. destruct o as [d|]; [|apply pinv_err].
          apply pinv_ret. cbn [opt_valid vlist build strs_valid]. auto.
        * (* vector *)
          apply pinv_skip; [apply pinv_same, same_enter|]. intros _.
          apply (pinv_nest_seq _ _ _ _ _ (Forall strs_valid) opt_valid); [apply IHvec; constructor|apply kind_liftR; [rk_by sat_end_seq|apply ens_any]|].
          intros l Hl. apply pinv_ret. cbn [opt_valid]. apply strs_valid_vector. exact Hl.
        * (* byte vector *)
          apply kind_skipR; [rk_by sat_parse_byte_list|]. intros bs. apply pinv_ret. exact I.
      + apply kind_skipR; [rk_by sat_parse_whitespace|]. intros o. destruct o as [c|]; [|apply pinv_err].
        destruct (is_closer c).
        { destruct (negb (c =? t)); [apply pinv_err|]. apply pinv_ret. apply strs_valid_build; [assumption|exact I]. }
        destruct (c =? 46).
        { apply kind_skipR; [apply (sat_bind Rrk Rrk_seq); [exact rk_eat|intros _; rk_prim]|]. intros nx.
          destruct (lone_dot nx).
          - destruct acc as [|x acc'].
            + apply kind_skipR; [rk_prim|]. intros o3. destruct o3; apply pinv_err.
            + apply (pinv_bind _ _ _ _ opt_valid strs_valid); [exact IHv|]. intros ov Hov.
              destruct ov as [cdr|]; [|apply pinv_err].
              apply kind_skipR; [rk_by sat_parse_whitespace|]. intros o2. destruct o2 as [c2|]; [|apply pinv_err].
              destruct (c2 =? t); [|apply pinv_err]. apply pinv_ret. apply strs_valid_build; assumption.
          - apply (pinv_bind _ _ _ _ valid strs_valid); [apply kind_liftR; [rk_by sat_parse_symbol_rd|apply ens_parse_symbol_rd; exact Hk]|].
            intros name Hn. apply IHl. apply Forall_snoc; [assumption|apply symbol_value_valid; exact Hn]. }
        apply (pinv_bind _ _ _ _ opt_valid strs_valid); [exact IHv|]. intros ov Hov.
        destruct ov as [v|]; [|apply pinv_err]. apply IHl. apply Forall_snoc; assumption.
      + apply kind_skipR; [rk_by sat_parse_whitespace|]. intros o. destruct o as [c|]; [|apply pinv_err].
        destruct (is_closer c).
        { destruct (negb (c =? t)); [apply pinv_err|]. apply pinv_ret. assumption. }
        apply (pinv_bind _ _ _ _ opt_valid (Forall strs_valid)); [exact IHv|]. intros ov Hov.
        destruct ov as [v|]; [|apply pinv_err]. apply IHvec. apply Forall_snoc; assumption.
  Qed.
End ValuesValid.

Section EntryValid.
  Variable ro : parse_options.
  Variable alpha : N -> bool.
  Variable fast : bool.
  Variable std_parse : N -> Z -> f64.

  Theorem next_value_valid k fuel s o s' : k <> SrcStr -> rk (rd s) = k ->
    next_value ro alpha fast std_parse fuel s = (POk (Some o), s') -> strs_valid o.
  Proof.
    intros Hk Hr E. pose proof (proj1 (values_valid ro alpha fast std_parse k Hk fuel) s Hr I) as H.
    rewrite E in H. apply H.
  Qed.

  Theorem from_trait_valid k inp v : k <> SrcStr ->
    from_trait ro alpha fast std_parse k inp = POk v -> strs_valid v.
  Proof.
    intros Hk E. destruct (from_trait_next ro alpha fast std_parse k inp v E) as [s1 E1].
    exact (next_value_valid k _ (init_state k inp) v s1 Hk eq_refl E1).
  Qed.

  Theorem datum_from_trait_valid k inp d : k <> SrcStr ->
    datum_from_trait ro alpha fast std_parse k inp = POk d -> strs_valid (dvalue d).
  Proof.
    intros Hk E. apply (from_trait_valid k inp); [exact Hk|]. rewrite from_trait_agree, E. reflexivity.
  Qed.
End EntryValid.
