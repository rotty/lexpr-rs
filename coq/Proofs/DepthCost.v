Require Import Base Value Depth.
From Coq Require Import ZifyNat.
Local Open Scope nat_scope.

Lemma list_max_le_add f g c (l : list value) :
  Forall (fun v => f v <= g v + c) l -> list_max (map f l) <= list_max (map g l) + c.
Proof. induction 1; cbn; lia. Qed.

Lemma walk_bound v : walk_depth v <= nesting v + 1 /\ walk_rest v <= nesting_rest v + 1.
Proof.
  induction v as [| |b|n|c|s|s|s|b|a d [IHa1 IHa2] [IHd1 IHd2]|l H] using value_ind';
    cbn [walk_depth walk_rest nesting nesting_rest]; try lia.
  assert (Hm : list_max (map walk_depth l) <= list_max (map nesting l) + 1).
  { apply list_max_le_add. eapply Forall_impl; [|exact H]. intros a [Ha _]. exact Ha. }
  lia.
Qed.

Lemma walk_flat xs t :
  Forall (fun x => nesting x = 0) xs -> nesting_rest t = 0 -> xs <> [] ->
  walk_depth (build xs t) <= 2.
Proof.
  intros Hxs Ht Hne.
  assert (Hrest : forall ys, Forall (fun x => nesting x = 0) ys -> nesting_rest (build ys t) = 0).
  { induction 1 as [|y ys Hy Hys IH]; cbn [build nesting_rest]; [exact Ht|]. rewrite Hy, IH. reflexivity. }
  destruct xs as [|x xs]; [congruence|]. inversion Hxs; subst.
  pose proof (proj1 (walk_bound (build (x :: xs) t))) as Hb.
  cbn [build nesting] in *. rewrite (Hrest xs H2) in Hb. lia.
Qed.

Lemma derived_linear xs t : length xs <= derived_depth (build xs t).
Proof. induction xs as [|x xs IH]; cbn [build derived_depth length]; lia. Qed.
