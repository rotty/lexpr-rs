(* C02, the Emacs Lisp pairing: text printed under print::Options::elisp(),
   read under parse::Options::elisp() from a str, a byte slice or a stream,
   gives the value back up to the documented folding: Nil, false and the symbol
   nil become the empty list, true becomes the symbol t, an empty byte vector
   the empty string. *)
From Coq Require Import SpecFloat ZifyBool ZifyNat ZifyN.
Require Import Base Value Float PrintOptions Printer ParseOptions Utf8 Reader Scan Num NumberOps Parser Depth.
Require Import ReaderProofs ScanProofs TextProofs TokenProofs NumTokenProofs CharStrProofs RoundtripProofs.
Require Import ElispText ElispTokens ElispStrings.

Fixpoint efold (v : value) : value :=
  match v with
  | Nil => Null
  | Bool b => if b then Symbol (s2b "t") else Null
  | Symbol s => if beq_bytes s (s2b "nil") then Null else Symbol s
  | Bytes b => match b with [] => String [] | _ => Bytes b end
  | Cons a d => Cons (efold a) (efold d)
  | Vector l => Vector (map efold l)
  | _ => v
  end.

(* identifiers that are one symbol token under the Emacs Lisp options: an ASCII
   letter or one of !$%&*./<=>@^_~ first, or a sign as in the default dialect *)
Definition eplain_symbol (s : bytes) : Prop :=
  no_terminator s /\ symbol_ok s /\
  match s with
  | [] => False
  | c :: s' =>
      (is_ascii_alpha c = true \/ In c eext_initial)
      \/ ((c = 43 \/ c = 45) /\ match s' with [] => True | c2 :: _ => sign_next_ok c2 = true end)
  end.

Fixpoint ert_ok (v : value) : Prop :=
  match v with
  | Nil | Null | Bool _ => True
  | Number (PosInt n) => n <= u64_MAX
  | Number (NegInt i) => (i64_min <= i < 0)%Z
  | Number (Float _) => False
  | Char c => is_scalar c = true
  | String s => utf8_valid s = true
  | Symbol s => eplain_symbol s
  | Keyword s => no_terminator s /\ symbol_ok s
  | Bytes b => octets_ok b
  | Cons a d => ert_ok a /\ ert_ok d
  | Vector l => (fix all (l : list value) : Prop :=
                   match l with [] => True | x :: l' => ert_ok x /\ all l' end) l
  end.
Definition all_ert_ok : list value -> Prop :=
  fix all (l : list value) : Prop := match l with [] => True | x :: l' => ert_ok x /\ all l' end.

Lemma esym_first c s' : eplain_symbol (c :: s') -> is_ws c = false /\ c <> 59 /\ is_closer c = false.
Proof.
  intros (_ & _ & Hfirst). destruct Hfirst as [[Ha|Hi]|[[->| ->] _]].
  - unfold is_ascii_alpha, is_ascii_lower, is_ascii_upper, in_range in Ha.
    unfold is_ws, is_closer, memb. cbn [existsb]. repeat split; lia.
  - unfold eext_initial in Hi. cbn in Hi.
    repeat (destruct Hi as [<-|Hi]; [repeat split; try reflexivity; discriminate|]). contradiction.
  - repeat split; try reflexivity; discriminate.
  - repeat split; try reflexivity; discriminate.
Qed.

Section ElispRoundtrip.
  Variable ryu : f64 -> bytes.
  Variable alpha : N -> bool.
  Variable fast : bool.
  Variable std_parse : N -> Z -> f64.
  Local Notation ro := elisp_ro.
  Local Notation next_value := (next_value ro alpha fast std_parse).
  Local Notation parse_list := (parse_list ro alpha fast std_parse).
  Local Notation parse_vector := (parse_vector ro alpha fast std_parse).
  Local Notation txt := (etxt ryu).
  Local Notation txt_tail := (etxt_tail ryu).
  Local Notation vec_elems := (evec_elems ryu).
  Local Notation reads := (reads alpha fast std_parse ro).
  Local Notation reads_list := (reads_list alpha fast std_parse ro).
  Local Notation reads_vector := (reads_vector alpha fast std_parse ro).
  Local Notation reads_token := (reads_token alpha fast std_parse ro).

  Definition after_token (f : nat) (tok : token) : PM (option value) :=
    match tok with
    | TNil => pret (Some Nil)
    | TNull => pret (Some Null)
    | TChar c => pret (Some (Char c))
    | TBool b => pret (Some (Bool b))
    | TNumber n => pret (Some (Number n))
    | TSymbol s => pret (Some (Symbol s))
    | TKeyword s => pret (Some (Keyword s))
    | TString s => pret (Some (String s))
    | TBytes b => pret (Some (Bytes b))
    | TByteVecOpen close => pbind (liftR (parse_byte_list fast std_parse f close)) (fun b => pret (Some (Bytes b)))
    | TVecOpen close =>
        pbind enter_nesting (fun _ =>
        pbind (attempt (parse_vector f close [])) (fun r =>
        pbind inc_depth (fun _ =>
        pbind (attempt (liftR (end_seq f close))) (fun e =>
        pbind (both r e) (fun els => pret (Some (Vector els)))))))
    | TListOpen close =>
        pbind enter_nesting (fun _ =>
        pbind (attempt (parse_list f close [])) (fun r =>
        pbind inc_depth (fun _ =>
        pbind (attempt (liftR (end_seq f close))) (fun e =>
        pbind (both r e) (fun l => pret (Some l))))))
    | TQuotation name =>
        pbind enter_nesting (fun _ =>
        pbind (attempt (next_value f)) (fun r =>
        pbind inc_depth (fun _ =>
        pbind (lift r) (fun o =>
        match o with
        | Some d => pret (Some (vlist [Symbol name; d]))
        | None => liftR (peek_error EofWhileParsingList)
        end))))
    end.

  Definition pre_ok (pre : bytes) : Prop := trivia pre.

  Definition K : nat := 16.

  Definition P (v : value) : Prop :=
    forall fuel r D pre rest, pre_ok pre -> ert_ok v -> N.of_nat (rdepth v) < D -> D <= 128 ->
      (length pre + length (txt v) + K <= fuel)%nat -> at_bytes r (pre ++ txt v ++ rest) -> delim_ok rest ->
      exists r', next_value fuel (mkp r D) = (POk (Some (efold v)), mkp r' D) /\ at_bytes r' rest /\ rk r' = rk r.

  Lemma P_reads v : P v -> ert_ok v -> reads (txt v) (efold v) (rdepth v).
  Proof. intros H Hok fuel r D pre rest Hpre. exact (H fuel r D pre rest Hpre Hok). Qed.
  Lemma reads_P v : (ert_ok v -> reads (txt v) (efold v) (rdepth v)) -> P v.
  Proof. intros H fuel r D pre rest Hpre Hok. exact (H Hok fuel r D pre rest Hpre). Qed.

  Lemma txt_head v : ert_ok v ->
    exists b t, txt v = b :: t /\ starts_datum b /\ is_closer b = false /\
                (b = 46 -> exists s, v = Symbol s).
  Proof. clear alpha fast std_parse.
    intros Hok.
    assert (Hsimple : forall b t, txt v = b :: t -> is_ws b = false -> b <> 59 -> is_closer b = false -> b <> 46 ->
              exists b t, txt v = b :: t /\ starts_datum b /\ is_closer b = false /\ (b = 46 -> exists s, v = Symbol s)).
    { intros b t E H1 H2 H3 H4. exists b, t. repeat split; auto. intros; contradiction. }
    destruct v as [| |b|n|c|s|s|s|bs|a d|l].
    - eapply (Hsimple 110); try reflexivity; discriminate.
    - eapply (Hsimple 40); try reflexivity; discriminate.
    - destruct b; [eapply (Hsimple 116)|eapply (Hsimple 110)]; try reflexivity; discriminate.
    - destruct n as [n|i|f].
      + cbn [etxt atom_etext number_text]. destruct (dec_of_N_spec n) as (ds & E & Hne & Hd & _). rewrite E.
        destruct ds as [|d ds]; [contradiction|]. pose proof (Forall_inv Hd) as Hdig. cbv beta in Hdig.
        unfold is_digit, in_range in Hdig. exists d, ds. split; [reflexivity|].
        unfold starts_datum, is_ws, is_closer, memb. cbn [existsb]. repeat split; try lia.
      + cbn in Hok. destruct i as [|p|p]; try lia. eapply (Hsimple 45); try reflexivity; discriminate.
      + contradiction.
    - assert (E : exists t, txt (Char c) = 63 :: t)
        by (cbn [etxt atom_etext]; unfold echar_text; destruct (_ && _); [destruct (memb c ELISP_ESCAPE_CHARS)|]; eexists; reflexivity).
      destruct E as [t E]. apply (Hsimple 63 t E); try reflexivity; discriminate.
    - eapply (Hsimple 34); try reflexivity; discriminate.
    - cbn [ert_ok] in Hok. destruct s as [|c s']; [destruct Hok as (_ & _ & []) |].
      destruct (esym_first c s' Hok) as (H1 & H2 & H3). exists c, s'. repeat split; auto. intros _. eexists; reflexivity.
    - eapply (Hsimple 58); try reflexivity; discriminate.
    - eapply (Hsimple 34); try reflexivity; discriminate.
    - eapply (Hsimple 40); try reflexivity; discriminate.
    - eapply (Hsimple 91); try reflexivity; discriminate.
  Qed.

  Lemma after_esym f name :
    RoundtripProofs.after_token alpha fast std_parse ro f (esym_token name) = pret (Some (efold (Symbol name))).
  Proof. unfold esym_token. cbn [efold]. destruct (beq_bytes name (s2b "nil")); reflexivity. Qed.
  Lemma esym_token_value name : after_token 0 (esym_token name) = pret (Some (efold (Symbol name))).
  Proof. exact (after_esym 0 name). Qed.

  Lemma P_symbol s : P (Symbol s).
  Proof.
    apply reads_P. intros Hok. destruct s as [|c s']; [destruct Hok as (_ & _ & [])|].
    destruct (esym_first c s' Hok) as (W1 & W2 & _). destruct Hok as (Hn & Hsok & [Hc|[Hc Hnext]]).
    - apply (reads_token (txt (Symbol (c :: s'))) _ c s' (esym_token (c :: s')) eq_refl (conj W1 W2) (fun f => after_esym f _)).
      intros f r rest Hf Hr Ha _.
      exact (etok_symbol_direct alpha fast std_parse f r c s' rest Hc ltac:(cbn in Hf; cbn [length]; lia) Hn
               Hr Hsok Ha).
    - apply (reads_token (txt (Symbol (c :: s'))) _ c s' (TSymbol (c :: s')) eq_refl (conj W1 W2)).
      + intros f. cbn [efold]. replace (beq_bytes (c :: s') (s2b "nil")) with false by (destruct Hc as [->| ->]; reflexivity).
        reflexivity.
      + intros f r rest Hf Hr.
        exact (etok_symbol_sign alpha fast std_parse f r c s' rest Hc Hnext ltac:(cbn in Hf; cbn [length]; lia) Hn Hr Hsok).
  Qed.

  Lemma nil_t_plain : eplain_symbol (s2b "nil") /\ eplain_symbol (s2b "t").
  Proof. unfold eplain_symbol, no_terminator, symbol_ok. repeat split; try reflexivity; repeat constructor; left; left; reflexivity. Qed.

  (* nil, t: printed as symbols *)
  Lemma P_as_symbol v name : txt v = name -> eplain_symbol name -> rdepth v = 0%nat -> efold v = efold (Symbol name) -> P v.
  Proof.
    intros Et Hpl Hd Ef. apply reads_P. intros _. rewrite Et, Hd, Ef. exact (P_reads (Symbol name) (P_symbol name) Hpl).
  Qed.

  Lemma P_nil : P Nil.
  Proof. apply (P_as_symbol Nil (s2b "nil")); [reflexivity|apply nil_t_plain|reflexivity|reflexivity]. Qed.
  Lemma P_bool b : P (Bool b).
  Proof.
    destruct b; [apply (P_as_symbol (Bool true) (s2b "t"))|apply (P_as_symbol (Bool false) (s2b "nil"))];
      try reflexivity; apply nil_t_plain.
  Qed.

  Lemma P_keyword s : P (Keyword s).
  Proof.
    apply reads_P. intros [Hn Hsok].
    apply (reads_token (txt (Keyword s)) (Keyword s) 58 s (TKeyword s) eq_refl (starts_byte 58 eq_refl eq_refl) (fun _ => eq_refl)).
    intros f r rest Hf Hr.
    exact (etok_keyword alpha fast std_parse f r s rest ltac:(cbn in Hf; lia) Hn Hr Hsok).
  Qed.

  Lemma P_char c : P (Char c).
  Proof.
    apply reads_P. intros Hok.
    assert (E : exists t, echar_text c = 63 :: t)
      by (unfold echar_text; destruct (_ && _); [destruct (memb c ELISP_ESCAPE_CHARS)|]; eexists; reflexivity).
    destruct E as [t E].
    apply (reads_token (txt (Char c)) (Char c) 63 t (TChar c) E (starts_byte 63 eq_refl eq_refl) (fun _ => eq_refl)).
    intros f r rest Hf Hr.
    exact (etok_char alpha fast std_parse f r c rest Hok ltac:(change (txt (Char c)) with (echar_text c) in Hf; lia) Hr).
  Qed.

  Lemma P_string s : P (String s).
  Proof.
    apply reads_P. intros Hok.
    apply (reads_token (txt (String s)) (String s) 34 _ (TString s) eq_refl (starts_byte 34 eq_refl eq_refl) (fun _ => eq_refl)).
    intros f r rest Hf _.
    exact (etok_string alpha fast std_parse f r s rest Hok ltac:(change (txt (String s)) with (estr_text s) in Hf; lia)).
  Qed.

  (* bytes are printed as a unibyte string *)
  Lemma P_bytes bs : P (Bytes bs).
  Proof.
    apply reads_P. intros Hok.
    apply (reads_token (txt (Bytes bs)) _ 34 _ (bytes_token bs) eq_refl (starts_byte 34 eq_refl eq_refl));
      [intros f; destruct bs; reflexivity|].
    intros f r rest Hf _.
    exact (etok_bytes alpha fast std_parse f r bs rest Hok ltac:(change (txt (Bytes bs)) with (ebytes_text bs) in Hf; lia)).
  Qed.

  Lemma P_number n : P (Number n).
  Proof.
    apply reads_P. destruct n as [n|i|fl]; cbn [ert_ok]; intros Hok; [| |contradiction].
    - destruct (dec_of_N_spec n) as (ds & E & Hne & Hd & _). destruct ds as [|d ds]; [contradiction|].
      apply (reads_token (txt (Number (PosInt n))) _ d ds (TNumber (PosInt n)) E
               (digit_starts_datum d (Forall_inv Hd)) (fun _ => eq_refl)).
      intros f r rest Hf Hr Ha _. change (txt (Number (PosInt n))) with (dec_of_N n) in *.
      destruct (etok_posint alpha fast std_parse f r n rest Hok ltac:(lia) Hr Ha) as (c & r1 & Ec & E1).
      rewrite E in Ec. injection Ec as <-. exists r1. exact E1.
    - destruct i as [|p|p]; try lia.
      apply (reads_token (txt (Number (NegInt (Z.neg p)))) _ 45 _ (TNumber (NegInt (Z.neg p))) eq_refl
               (starts_byte 45 eq_refl eq_refl) (fun _ => eq_refl)).
      intros f r rest Hf Hr. apply (etok_negint alpha fast std_parse f r (Z.neg p) rest Hok); [|exact Hr].
      change (Z.to_N (- Z.neg p)) with (N.pos p). cbn [etxt atom_etext number_text dec_of_Z length] in Hf. lia.
  Qed.

  Lemma symbol_value_dot t : symbol_value ro (46 :: t) = Symbol (46 :: t).
  Proof. unfold symbol_value. rewrite symbol_token_elisp. reflexivity. Qed.

  Lemma elem_step a : P a -> forall f r D acc pre more, pre_ok pre -> ert_ok a -> N.of_nat (rdepth a) < D -> D <= 128 ->
    (length pre + length (txt a) + K <= f)%nat -> at_bytes r (pre ++ txt a ++ more) -> delim_ok more ->
    exists r1, parse_list (S f) 41 acc (mkp r D) = parse_list f 41 (acc ++ [efold a]) (mkp r1 D) /\
               at_bytes r1 more /\ rk r1 = rk r.
  Proof.
    intros HP f r D acc pre more Hpre Hok HD HD'.
    destruct (txt_head a Hok) as (b & t & E & Hst & Hcl & H46).
    destruct (N.eq_dec b 46) as [->|Hne].
    - destruct (H46 eq_refl) as [s ->]. change (txt (Symbol s)) with s in *. subst s.
      destruct Hok as (Hn & Hsok & _). change (efold (Symbol (46 :: t))) with (Symbol (46 :: t)).
      rewrite <- symbol_value_dot.
      exact (list_dot_symbol alpha fast std_parse ro 41 t Hn Hsok f r D acc pre more Hpre).
    - exact (list_item alpha fast std_parse ro 41 (txt a) (efold a) (rdepth a) b t (P_reads a HP Hok) E Hst Hcl Hne
               f r D acc pre more Hpre HD HD').
  Qed.

  Lemma txt_nonempty a : ert_ok a -> (1 <= length (txt a))%nat.
  Proof. clear alpha fast std_parse. intros H. destruct (txt_head a H) as (b & t & E & _). rewrite E. cbn [length]. lia. Qed.

  Definition body_text (first : bool) (d : value) : bytes :=
    if first then match d with Cons a d' => txt a ++ txt_tail d' | _ => [] end else txt_tail d.

  Definition Tl (first : bool) (d : value) : Prop :=
    ert_ok d -> reads_list 41 (body_text first d) (efold d) (rdepth_rest d) (negb (is_cons d || is_null d)).

  Lemma Tl_null first : Tl first Null.
  Proof.
    intros _. replace (body_text first Null) with (@nil N) by (destruct first; reflexivity).
    apply list_end; [left; reflexivity|constructor].
  Qed.

  Lemma Tl_cons first a d' : P a -> Tl false d' -> Tl first (Cons a d').
  Proof.
    intros HPa HT [Hoka Hokd].
    replace (body_text first (Cons a d')) with ((if first then [] else [32]) ++ txt a ++ txt_tail d')
      by (destruct first; reflexivity).
    apply (list_cons alpha fast std_parse ro 41 _ (txt a) (efold a) (rdepth a) (txt_tail d') (efold d') (rdepth_rest d') false
             (negb (is_cons d' || is_null d'))).
    - intros f r D acc pre more Hpre. exact (elem_step a HPa f r D acc pre more Hpre Hoka).
    - exact (txt_nonempty a Hoka).
    - destruct first; [constructor|exact trivia_space].
    - intros rest. destruct d'; reflexivity.
    - exact (HT Hokd).
  Qed.

  Lemma Tl_dot d : P d -> is_cons d = false -> is_null d = false -> Tl false d.
  Proof.
    intros HPd Hc Hn Hok. rewrite Hc, Hn. replace (rdepth_rest d) with (rdepth d) by (destruct d; try discriminate; reflexivity).
    replace (body_text false d) with ([32] ++ 46 :: [32] ++ txt d ++ [])
      by (rewrite app_nil_r; symmetry; exact (etxt_tail_noncons ryu d Hc Hn)).
    apply list_dot; [left; reflexivity|exact (P_reads d HPd Hok)|exact (txt_nonempty d Hok)|exact trivia_space|exact trivia_space|reflexivity|constructor].
  Qed.

  Lemma list_wrap v : is_cons v = true \/ is_null v = true -> Tl true v -> P v.
  Proof.
    intros Hshape HT. apply reads_P. intros Hok. specialize (HT Hok).
    replace (txt v) with (40 :: [] ++ body_text true v ++ [41]).
    2:{ destruct v; destruct Hshape as [Hs|Hs]; try discriminate Hs; [reflexivity|].
        rewrite etxt_cons. unfold body_text. cbn [app]. now rewrite <- app_assoc. }
    destruct v; destruct Hshape as [Hs|Hs]; try discriminate Hs;
      exact (list_seq alpha fast std_parse ro 41 40 [] _ _ _ (or_introl eq_refl) (starts_byte 40 eq_refl eq_refl)
               (etok_listopen alpha fast std_parse) HT).
  Qed.

  Lemma Vl l : Forall P l -> forall first, all_ert_ok l ->
    reads_vector 93 (vec_elems first l) (map efold l) (list_max (map rdepth l)).
  Proof.
    induction 1 as [|x l HPx _ IH]; intros first Hok.
    - apply vector_end; [right; reflexivity|constructor].
    - destruct Hok as [Hokx Hokl]. destruct (txt_head x Hokx) as (b & t & E & Hst & Hcl & _).
      apply (vector_cons alpha fast std_parse ro 93 (if first then [] else [32]) (txt x) (efold x) (rdepth x) b t
               (vec_elems false l) (map efold l) _ (P_reads x HPx Hokx) E Hst Hcl).
      + destruct first; [constructor|exact trivia_space].
      + intros rest. destruct l; reflexivity.
      + exact (IH false Hokl).
  Qed.

  Lemma P_vector l : Forall P l -> P (Vector l).
  Proof.
    intros HPl. apply reads_P. intros Hok.
    exact (vector_seq alpha fast std_parse ro 93 91 [] (vec_elems true l) (map efold l) _ (or_intror eq_refl)
             (starts_byte 91 eq_refl eq_refl) (etok_vecopen alpha fast std_parse) (Vl l HPl true Hok)).
  Qed.

  Theorem next_value_reads_text v : P v /\ Tl false v.
  Proof.
    induction v as [| |b|n|c|s|s|s|bs|a d [IHa _] [_ IHd]|l H] using value_ind'.
    - split; [apply P_nil|apply Tl_dot; [apply P_nil|reflexivity|reflexivity]].
    - split; [apply list_wrap; [right; reflexivity|apply Tl_null]|apply Tl_null].
    - split; [apply P_bool|apply Tl_dot; [apply P_bool|reflexivity|reflexivity]].
    - split; [apply P_number|apply Tl_dot; [apply P_number|reflexivity|reflexivity]].
    - split; [apply P_char|apply Tl_dot; [apply P_char|reflexivity|reflexivity]].
    - split; [apply P_string|apply Tl_dot; [apply P_string|reflexivity|reflexivity]].
    - split; [apply P_symbol|apply Tl_dot; [apply P_symbol|reflexivity|reflexivity]].
    - split; [apply P_keyword|apply Tl_dot; [apply P_keyword|reflexivity|reflexivity]].
    - split; [apply P_bytes|apply Tl_dot; [apply P_bytes|reflexivity|reflexivity]].
    - split; [apply list_wrap; [left; reflexivity|]|]; apply Tl_cons; assumption.
    - assert (HPl : Forall P l) by (eapply Forall_impl; [|exact H]; intros x [Hx _]; exact Hx).
      split; [apply P_vector; exact HPl|apply Tl_dot; [apply P_vector; exact HPl|reflexivity|reflexivity]].
  Qed.

  Theorem elisp_roundtrip_from_trait k v : ert_ok v -> (rdepth v <= 127)%nat ->
    from_trait ro alpha fast std_parse k (bytes_events (txt v)) = POk (efold v).
  Proof.
    intros Hok Hd. rewrite <- (app_nil_r (txt v)).
    exact (from_trait_reads alpha fast std_parse ro (txt v) (efold v) (rdepth v) k [] []
             (P_reads v (proj1 (next_value_reads_text v)) Hok) Hd tv_nil (te_trivia [] tv_nil)).
  Qed.

End ElispRoundtrip.
