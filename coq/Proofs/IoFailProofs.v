(* C06: the error is the I/O error unless the delivered prefix already
   determines the outcome. Two streams that agree on a prefix `pre`: in one the
   prefix is followed by a hard failure e (and anything after it), in the other
   by any continuation `cnt`. Reading both side by side, every function of the
   parser either - on the failing stream - ends in the I/O error e, or returns
   the same result on both and leaves the readers at the same place inside the
   prefix. At the entry points: from_reader on the failing stream returns the
   I/O error e, or it returns exactly what it returns on pre ++ cnt for EVERY
   cnt - the prefix determines the result. *)
From Coq Require Import SpecFloat.
Require Import Base Value Float PrintOptions ParseOptions Utf8 Reader Scan Num NumberOps Parser.
Require Import RelFramework.
Require EscapeRuns.

Section IoFail.
  Variable ioe : N.
  Variable post cnt : list event.

  (* r1 reads pre ++ cnt, r2 reads pre ++ EFail ioe :: post; both are somewhere inside pre *)
  Definition srel (r1 r2 : reader) : Prop :=
    rk r1 = SrcIo /\ rk r2 = SrcIo /\ rline r1 = rline r2 /\ rcol r1 = rcol r2 /\ rpending r1 = rpending r2 /\
    exists suf, rinput r1 = suf ++ cnt /\ rinput r2 = suf ++ EFail ioe :: post /\
                (rpending r2 = true -> exists b s', suf = EByte b :: s').

  Definition esc {A} (x : res A) : Prop :=
    match x with Err EFuel => True | Err (EIo e') => e' = ioe | _ => False end.
  Definition sc {A} (m : M A) (r1 r2 : reader) : Prop :=
    esc (fst (m r2)) \/ (fst (m r1) = fst (m r2) /\ srel (snd (m r1)) (snd (m r2))).
  Definition sx {A} (m : M A) : Prop := forall r1 r2, srel r1 r2 -> sc m r1 r2.

  Lemma sx_ret {A} (a : A) : sx (ret a).
  Proof. intros r1 r2 H. right. split; [reflexivity|exact H]. Qed.
  Lemma sx_fuel {A} : sx (@out_of_fuel A).
  Proof. intros r1 r2 H. left. exact I. Qed.
  Lemma mk_srel ln cl p suf : (p = true -> exists b s', suf = EByte b :: s') ->
    srel {| rk := SrcIo; rline := ln; rcol := cl; rpending := p; rinput := suf ++ cnt |}
         {| rk := SrcIo; rline := ln; rcol := cl; rpending := p; rinput := suf ++ EFail ioe :: post |}.
  Proof.
    intros H. unfold srel. cbn [rk rline rcol rpending rinput]. repeat (split; [reflexivity|]).
    exists suf. split; [reflexivity|]. split; [reflexivity|exact H].
  Qed.

  Lemma sx_peek : sx peek.
  Proof.
    intros [k1 ln1 cl1 p1 i1] [k2 ln2 cl2 p2 i2] (K1 & K2 & L & C & P & suf & I1 & I2 & Hp). cbn [rk rline rcol rpending rinput] in *. subst.
    unfold sc, peek, r_peek. cbn [rpending rinput rk rline rcol]. destruct p2.
    - destruct (Hp eq_refl) as (b & s' & ->). cbn [app fst snd]. right. split; [reflexivity|].
      apply (mk_srel ln2 cl2 true (EByte b :: s')). eauto.
    - destruct (skip_split suf) as [[Es E]|(ev & s' & Es & Hne & E)].
      + left. rewrite E. cbn [skip_intr fst esc]. reflexivity.
      + rewrite !E. right.
        destruct ev as [b| |e0]; [| contradiction |]; cbn [fst snd]; (split; [reflexivity|]).
        * apply (mk_srel ln2 cl2 true (EByte b :: s')). eauto.
        * apply (mk_srel ln2 cl2 false s'). discriminate.
  Qed.
  Lemma consume_srel ln cl b s' :
    srel (let '(ln', cl') := advance ln cl b in {| rk := SrcIo; rline := ln'; rcol := cl'; rpending := false; rinput := s' ++ cnt |})
         (let '(ln', cl') := advance ln cl b in {| rk := SrcIo; rline := ln'; rcol := cl'; rpending := false; rinput := s' ++ EFail ioe :: post |}).
  Proof. destruct (advance ln cl b) as [l2 c2]. apply (mk_srel l2 c2 false s'). discriminate. Qed.
  Lemma sx_next : sx next_char.
  Proof.
    intros [k1 ln1 cl1 p1 i1] [k2 ln2 cl2 p2 i2] (K1 & K2 & L & C & P & suf & I1 & I2 & Hp). cbn [rk rline rcol rpending rinput] in *. subst.
    unfold sc, next_char, r_next. cbn [rpending rinput rk rline rcol]. destruct p2.
    - destruct (Hp eq_refl) as (b & s' & ->). cbn [app fst snd]. right. split; [reflexivity|].
      unfold consume. cbn [rk rline rcol]. apply consume_srel.
    - destruct (skip_split suf) as [[Es E]|(ev & s' & Es & Hne & E)].
      + left. rewrite E. cbn [skip_intr fst esc]. reflexivity.
      + rewrite !E. right.
        destruct ev as [b| |e0]; [| contradiction |]; cbn [fst snd]; (split; [reflexivity|]).
        * unfold consume. cbn [rk rline rcol]. apply consume_srel.
        * apply (mk_srel ln2 cl2 false s'). discriminate.
  Qed.
  Lemma discard_srel r1 r2 : srel r1 r2 -> srel (r_discard r1) (r_discard r2).
  Proof.
    destruct r1 as [k1 ln1 cl1 p1 i1], r2 as [k2 ln2 cl2 p2 i2]. intros (K1 & K2 & L & C & P & suf & I1 & I2 & Hp).
    cbn [rk rline rcol rpending rinput] in *. subst. unfold r_discard. cbn [rk rpending rinput]. destruct p2.
    - destruct (Hp eq_refl) as (b & s' & ->). cbn [app]. unfold consume. cbn [rk rline rcol]. apply consume_srel.
    - apply (mk_srel ln2 cl2 false suf). discriminate.
  Qed.
  Lemma sx_eat : sx eat_char.
  Proof. intros r1 r2 H. right. unfold eat_char. cbn [fst snd]. split; [reflexivity|apply discard_srel; exact H]. Qed.
  Lemma peek_position_srel r1 r2 : srel r1 r2 -> r_peek_position r1 = r_peek_position r2.
  Proof.
    intros (K1 & K2 & L & C & P & suf & I1 & I2 & Hp). unfold r_peek_position. rewrite K1, K2, P, L, C.
    destruct (rpending r2); [|reflexivity]. destruct (Hp eq_refl) as (b & s' & ->). rewrite I1, I2. reflexivity.
  Qed.
  Lemma sx_error {A} c : sx (@error A c).
  Proof.
    intros r1 r2 H. right. pose proof H as (K1 & K2 & L & C & _). unfold error, r_position. rewrite L, C. cbn [fst snd]. split; [reflexivity|exact H].
  Qed.
  Lemma sx_peek_error {A} c : sx (@peek_error A c).
  Proof.
    intros r1 r2 H. right. unfold peek_error. rewrite (peek_position_srel r1 r2 H). destruct (r_peek_position r2). cbn [fst snd]. split; [reflexivity|exact H].
  Qed.
  Lemma sx_error_consume {A} c : sx (@error_consume A c).
  Proof.
    intros r1 r2 H. right. unfold error_consume, peek_error. rewrite (peek_position_srel r1 r2 H). destruct (r_peek_position r2). cbn [fst snd].
    split; [reflexivity|apply discard_srel; exact H].
  Qed.
  Lemma sx_position : sx position.
  Proof.
    intros r1 r2 H. right. pose proof H as (K1 & K2 & L & C & _). unfold position, r_position. rewrite L, C. cbn [fst snd]. split; [reflexivity|exact H].
  Qed.

(* sx and, below, psx are the judgements of EscapeRuns at srel, for the errors esc lets through *)
Definition escapes (e : perr) : Prop :=
  match e with EFuel => True | EIo e' => e' = ioe | _ => False end.
Lemma sx_bind {A B} (m : M A) (f : A -> M B) : sx m -> (forall a, sx (f a)) -> sx (bind m f).
Proof. exact (EscapeRuns.sx_bind srel escapes m f). Qed.
Lemma sx_ext {A} (m m' : M A) : (forall r, m r = m' r) -> sx m' -> sx m.
Proof. exact (EscapeRuns.sx_ext srel escapes m m'). Qed.

Ltac sx_walk lem :=
  plain_walk (@sx) lem (@sx_ext) (@sx_ret) (@sx_fuel) (@sx_error) (@sx_peek_error) (@sx_bind) sx_peek sx_next sx_eat (@sx_error_consume).

Lemma sx_peek_or_null : sx peek_or_null.
Proof. sx_walk walk_peek_or_null. Qed.
Lemma sx_next_or_eof : sx next_or_eof.
Proof. sx_walk walk_next_or_eof. Qed.
Lemma sx_next_or_eof_char : sx next_or_eof_char.
Proof. sx_walk walk_next_or_eof_char. Qed.
Lemma sx_as_str b : sx (Scan.as_str b).
Proof. sx_walk walk_as_str. Qed.
Lemma sx_scan_symbol_io fuel : forall scratch, sx (scan_symbol_io fuel scratch).
Proof. sx_walk walk_scan_symbol_io. Qed.
Lemma sx_parse_symbol_rd fuel scratch : sx (parse_symbol_rd fuel scratch).
Proof.
  intros r1 r2 H. pose proof H as (K1 & K2 & _). unfold sc, parse_symbol_rd. rewrite K1, K2.
  apply (sx_bind _ _ (sx_scan_symbol_io fuel scratch) sx_as_str). exact H.
Qed.
Lemma sx_hex_escape_loop fuel : forall x, sx (hex_escape_loop fuel x).
Proof. sx_walk walk_hex_escape_loop. Qed.
Lemma sx_parse_r6rs_escape fuel : sx (parse_r6rs_escape fuel).
Proof. sx_walk walk_parse_r6rs_escape. Qed.
Lemma sx_r6rs_str_io fuel : forall scratch, sx (r6rs_str_io fuel scratch).
Proof. sx_walk walk_r6rs_str_io. Qed.
Lemma sx_parse_r6rs_str_rd fuel : sx (parse_r6rs_str_rd fuel).
Proof.
  intros r1 r2 H. pose proof H as (K1 & K2 & _). unfold sc, parse_r6rs_str_rd. rewrite K1, K2.
  apply (sx_bind _ _ (sx_r6rs_str_io fuel []) sx_as_str). exact H.
Qed.
Lemma sx_elisp_hex_loop fuel : forall x, sx (elisp_hex_loop fuel x).
Proof. sx_walk walk_elisp_hex_loop. Qed.
Lemma sx_decode_elisp_uni_escape k : forall x, sx (decode_elisp_uni_escape k x).
Proof. sx_walk walk_decode_elisp_uni_escape. Qed.
Lemma sx_elisp_octal_loop fuel : forall x, sx (elisp_octal_loop fuel x).
Proof. sx_walk walk_elisp_octal_loop. Qed.
Lemma sx_elisp_char_escape_of x : sx (elisp_char_escape_of x).
Proof. sx_walk walk_elisp_char_escape_of. Qed.
Lemma sx_elisp_uni_escape_of x : sx (elisp_uni_escape_of x).
Proof. sx_walk walk_elisp_uni_escape_of. Qed.
Lemma sx_parse_elisp_escape fuel : sx (parse_elisp_escape fuel).
Proof. sx_walk walk_parse_elisp_escape. Qed.
Lemma sx_elisp_finish fl scratch : sx (elisp_finish fl scratch).
Proof. sx_walk walk_elisp_finish. Qed.
Lemma sx_elisp_str_io fuel : forall fl scratch, sx (elisp_str_io fuel fl scratch).
Proof. sx_walk walk_elisp_str_io. Qed.
Lemma sx_parse_elisp_str_rd fuel : sx (parse_elisp_str_rd fuel).
Proof.
  intros r1 r2 H. pose proof H as (K1 & K2 & _). unfold sc, parse_elisp_str_rd. cbv zeta. rewrite K1, K2.
  apply sx_elisp_str_io. exact H.
Qed.
Lemma sx_take_bytes k : forall acc, sx (take_bytes k acc).
Proof. sx_walk walk_take_bytes. Qed.
Lemma sx_decode_utf8_sequence_b c : sx (decode_utf8_sequence_b c).
Proof. sx_walk walk_decode_utf8_sequence_b. Qed.
Lemma sx_decode_utf8_sequence c : sx (decode_utf8_sequence c).
Proof. sx_walk walk_decode_utf8_sequence. Qed.
Lemma sx_r6rs_char_hex_loop fuel : forall x first, sx (r6rs_char_hex_loop fuel x first).
Proof. sx_walk walk_r6rs_char_hex_loop. Qed.
Lemma sx_char_name_loop fuel : forall scratch, sx (char_name_loop fuel scratch).
Proof. sx_walk walk_char_name_loop. Qed.
Lemma sx_open_ended_char x : sx (open_ended_char x).
Proof. sx_walk walk_open_ended_char. Qed.
Lemma sx_parse_r6rs_char fuel : sx (parse_r6rs_char fuel).
Proof. sx_walk walk_parse_r6rs_char. Qed.
Lemma sx_as_char x : sx (Scan.as_char x).
Proof. sx_walk walk_as_char. Qed.
Lemma sx_decode_elisp_char_escape fuel : sx (decode_elisp_char_escape fuel).
Proof. sx_walk walk_decode_elisp_char_escape. Qed.
Lemma sx_parse_elisp_char fuel : sx (parse_elisp_char fuel).
Proof. sx_walk walk_parse_elisp_char. Qed.

Section NumIo.
  Variable fast : bool.
  Variable std_parse : N -> Z -> f64.

  Lemma sx_fast_loop fuel : forall f e, sx (f64_from_parts_fast_loop fuel f e).
  Proof. sx_walk walk_fast_loop. Qed.
  Lemma sx_f64_from_parts pos sig e : sx (f64_from_parts fast std_parse pos sig e).
  Proof. sx_walk walk_f64_from_parts. Qed.
  Lemma sx_skip_digits fuel : sx (skip_digits fuel).
  Proof. sx_walk walk_skip_digits. Qed.
  Lemma sx_parse_exponent_overflow fuel p s pe : sx (parse_exponent_overflow fuel p s pe).
  Proof. sx_walk walk_parse_exponent_overflow. Qed.
  Lemma sx_exponent_digits fuel : forall p s pe se e, sx (exponent_digits fast std_parse fuel p s pe se e).
  Proof. sx_walk walk_exponent_digits. Qed.
  Lemma sx_parse_exponent fuel p s se : sx (parse_exponent fast std_parse fuel p s se).
  Proof. sx_walk walk_parse_exponent. Qed.
  Lemma sx_decimal_digits fuel : forall s e o, sx (decimal_digits fuel s e o).
  Proof. sx_walk walk_decimal_digits. Qed.
  Lemma sx_parse_decimal fuel p s e : sx (parse_decimal fast std_parse fuel p s e).
  Proof. sx_walk walk_parse_decimal. Qed.
  Lemma sx_parse_long_integer fuel : forall radix p s e, sx (parse_long_integer fast std_parse fuel radix p s e).
  Proof. sx_walk walk_parse_long_integer. Qed.
  Lemma sx_parse_num_tail fuel radix p s : sx (parse_num_tail fast std_parse fuel radix p s).
  Proof. sx_walk walk_parse_num_tail. Qed.
  Lemma sx_num_literal_loop fuel : forall radix p s, sx (num_literal_loop fast std_parse fuel radix p s).
  Proof. sx_walk walk_num_literal_loop. Qed.
  Lemma sx_parse_num_literal fuel radix p : sx (parse_num_literal fast std_parse fuel radix p).
  Proof. sx_walk walk_parse_num_literal. Qed.
End NumIo.

Section TokenIo.
  Variable ro : parse_options.
  Variable alpha : N -> bool.
  Variable fast : bool.
  Variable std_parse : N -> Z -> f64.

  Lemma sx_parse_num_token fuel radix p : sx (parse_num_token fast std_parse fuel radix p).
  Proof. sx_walk walk_parse_num_token. Qed.
  Lemma sx_parse_radix_literal fuel radix : sx (parse_radix_literal fast std_parse fuel radix).
  Proof. sx_walk walk_parse_radix_literal. Qed.
  Lemma sx_parse_number fuel : sx (parse_number fast std_parse fuel).
  Proof. sx_walk walk_parse_number. Qed.
  Lemma sx_skip_comment fuel : sx (skip_comment fuel).
  Proof. sx_walk walk_skip_comment. Qed.
  Lemma sx_parse_whitespace fuel : sx (parse_whitespace fuel).
  Proof. sx_walk walk_parse_whitespace. Qed.
  Lemma sx_parse_symbol fuel : sx (parse_symbol fuel).
  Proof. apply sx_parse_symbol_rd. Qed.
  Lemma sx_parse_symbol_suffix fuel p : sx (parse_symbol_suffix fuel p).
  Proof. apply sx_parse_symbol_rd. Qed.
  Lemma sx_expect_ident ident : sx (expect_ident ident).
  Proof. sx_walk walk_expect_ident. Qed.
  Lemma sx_parse_token fuel b : sx (parse_token ro alpha fast std_parse fuel b).
  Proof. sx_walk walk_parse_token; auto using sx_parse_symbol_rd, sx_parse_r6rs_str_rd, sx_parse_elisp_str_rd. Qed.
  Lemma sx_end_seq fuel close : sx (end_seq fuel close).
  Proof. sx_walk walk_end_seq. Qed.
  Lemma sx_expect_end fuel : sx (expect_end fuel).
  Proof. sx_walk walk_expect_end. Qed.
  Lemma sx_byte_list_loop fuel : forall close acc, sx (byte_list_loop fast std_parse fuel close acc).
  Proof. sx_walk walk_byte_list_loop. Qed.
  Lemma sx_parse_byte_list fuel close : sx (parse_byte_list fast std_parse fuel close).
  Proof. sx_walk walk_parse_byte_list. Qed.
End TokenIo.

Definition sprel (s1 s2 : pstate) : Prop := srel (rd s1) (rd s2) /\ depth s1 = depth s2.
Definition pesc {A} (x : pres A) : Prop :=
  match x with
  | PErr (XErr EFuel) => True
  | PErr (XErr (EIo e')) => e' = ioe
  | PErr (XPanic _) => True
  | _ => False
  end.
Definition is_pok {A} (x : pres A) : Prop := match x with POk _ => True | _ => False end.
Definition psc {A} (m : PM A) (s1 s2 : pstate) : Prop :=
  pesc (fst (m s2)) \/ fst (m s1) = PErr (XErr EFuel) \/
  (fst (m s1) = fst (m s2) /\ depth (snd (m s1)) = depth (snd (m s2)) /\
   (is_pok (fst (m s2)) -> srel (rd (snd (m s1))) (rd (snd (m s2))))).
Definition psx {A} (m : PM A) : Prop := forall s1 s2, sprel s1 s2 -> psc m s1 s2.

Lemma psx_nest_gen {A B} (body : PM A) (cont : res A -> PM B) :
  psx body -> (forall a, psx (cont (Ok a))) ->
  (forall x s, ((255 <=? depth s) = true /\ fst (cont (Err x) s) = PErr (XPanic 2)) \/
               ((255 <=? depth s) = false /\ depth (snd (cont (Err x) s)) = depth s + 1 /\
                (fst (cont (Err x) s) = PErr (XErr x) \/ fst (cont (Err x) s) = PErr (XErr EFuel)))) ->
  psx (pbind (attempt body) cont).
Proof. exact (EscapeRuns.psx_nest_gen srel escapes I body cont). Qed.
Lemma psx_liftR {A} (m : M A) : sx m -> psx (liftR m).
Proof. exact (EscapeRuns.psx_liftR srel escapes m). Qed.
Lemma psx_nest_seq {A B} (body : PM A) (endm : M unit) (k : A -> PM B) :
  psx body -> sx endm -> (forall a, psx (k a)) ->
  psx (pbind (attempt body) (fun r =>
       pbind inc_depth (fun _ =>
       pbind (attempt (liftR endm)) (fun e =>
       pbind (both r e) k)))).
Proof. exact (EscapeRuns.psx_nest_seq srel escapes I body endm k). Qed.

Section ParserIo.
  Variable ro : parse_options.
  Variable alpha : N -> bool.
  Variable fast : bool.
  Variable std_parse : N -> Z -> f64.

  Local Notation next_value := (next_value ro alpha fast std_parse).
  Local Notation parse_list := (parse_list ro alpha fast std_parse).
  Local Notation parse_vector := (parse_vector ro alpha fast std_parse).
  Local Notation next_datum := (next_datum ro alpha fast std_parse).
  Local Notation parse_list_meta := (parse_list_meta ro alpha fast std_parse).
  Local Notation parse_vector_meta := (parse_vector_meta ro alpha fast std_parse).

  Ltac psx_walk lem :=
    plain_pwalk lem (@sx) (@psx) (@EscapeRuns.psx_pret srel escapes) (@EscapeRuns.psx_fuel srel escapes I)
                (@EscapeRuns.psx_bind srel escapes) (@psx_liftR)
                (EscapeRuns.psx_enter_nesting srel escapes (@sx_peek_error))
                (@psx_nest_seq) (@EscapeRuns.psx_nest_quote srel escapes I);
    auto using sx_peek_error, sx_peek, sx_bind, sx_eat, sx_position, sx_parse_whitespace, sx_parse_token,
      sx_parse_symbol_suffix, sx_parse_byte_list, sx_end_seq.

  Theorem str_values fuel :
    psx (next_value fuel) /\ (forall t acc, psx (parse_list fuel t acc)) /\ (forall t acc, psx (parse_vector fuel t acc)).
  Proof. psx_walk pwalk_values. Qed.

  Theorem str_datums fuel :
    psx (next_datum fuel) /\ (forall t acc, psx (parse_list_meta fuel t acc)) /\ (forall t acc, psx (parse_vector_meta fuel t acc)).
  Proof. psx_walk pwalk_datums. Qed.

  Lemma init_sprel (pre : list event) : sprel (init_state SrcIo (pre ++ cnt)) (init_state SrcIo (pre ++ EFail ioe :: post)).
  Proof.
    unfold sprel, init_state, mk_reader. cbn [rd depth]. split; [|reflexivity]. apply (mk_srel 1 0 false pre). discriminate.
  Qed.

  (* with one step budget on both sides *)
  Theorem io_fail_values fuel (pre : list event) :
    psc (pbind (expect_value ro alpha fast std_parse fuel) (fun v => pbind (expect_end_p fuel) (fun _ => pret v)))
        (init_state SrcIo (pre ++ cnt)) (init_state SrcIo (pre ++ EFail ioe :: post)).
  Proof.
    apply (EscapeRuns.psx_whole srel escapes (expect_value ro alpha fast std_parse fuel) fuel (sx_expect_end _) ltac:(psx_walk pwalk_expect_value)), init_sprel.
  Qed.
  Theorem io_fail_datums fuel (pre : list event) :
    psc (pbind (expect_datum ro alpha fast std_parse fuel) (fun v => pbind (expect_end_p fuel) (fun _ => pret v)))
        (init_state SrcIo (pre ++ cnt)) (init_state SrcIo (pre ++ EFail ioe :: post)).
  Proof.
    apply (EscapeRuns.psx_whole srel escapes (expect_datum ro alpha fast std_parse fuel) fuel (sx_expect_end _) ltac:(psx_walk pwalk_expect_datum)), init_sprel.
  Qed.
End ParserIo.
End IoFail.
