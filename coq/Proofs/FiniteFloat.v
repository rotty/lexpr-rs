(* C05: no numeric literal is ever read as an infinity or a NaN. Every float the
   number routines return is finite - a magnitude too large for binary64 ends
   in NumberOutOfRange instead (the guards after the one multiplication that
   can overflow), divisions by a power of ten cannot overflow, and the
   operands never are infinities or NaNs themselves. Flocq carries the facts
   about binary64 arithmetic. *)
From Coq Require Import ZArith Reals Lia Lra SpecFloat.
From Flocq Require Import Core BinarySingleNaN.
Require Import Base Value Float PrintOptions ParseOptions Reader Scan Num NumberOps Parser RelFramework ClingerProofs FuelProofs FloatFuel.

Local Open Scope Z_scope.
Local Existing Instance prec53_gt_0.
Local Existing Instance prec53_lt_emax.
Local Notation bfloat := (binary_float p53 e1024).
Local Notation fexp64 := (SpecFloat.fexp p53 e1024).
Local Notation rnd64 := (round radix2 fexp64 ZnearestE).
Local Existing Instance valid64.

Definition finb (f : f64) : Prop := exists x : bfloat, f = B2SF x /\ is_finite x = true.

Lemma finb_finite f : finb f -> is_finite_f64 f = true.
Proof. intros (x & -> & H). destruct x; try discriminate; reflexivity. Qed.
Lemma finb_neg f : finb f -> finb (f64_neg f).
Proof.
  intros (x & -> & H). exists (Bopp x). split; [|rewrite is_finite_Bopp; exact H].
  destruct x; reflexivity.
Qed.
Lemma finb_zero s : finb (S754_zero s).
Proof. exists (B754_zero s). split; reflexivity. Qed.

Lemma pow10_finite (k : N) : (k <= 308)%N -> exists y : bfloat, pow10_f64 k = B2SF y /\ is_finite y = true /\ (1 <= B2R y)%R.
Proof.
  intros Hk. unfold pow10_f64. rewrite f64_of_Z_B. exists (bnorm (10 ^ Z.of_N k)).
  destruct (bnorm_between (10 ^ Z.of_N k) 1 maxf) as [Hf [H1 _]];
    [change 1%R with (bpow radix2 0); apply fmt_bpow; lia|exact maxf_fmt|lra|exact maxf_lt| |auto].
  split.
  - apply IZR_le. change 1 with (10 ^ 0). apply Z.pow_le_mono_r; lia.
  - apply Rle_trans with (IZR (10 ^ 308)); [apply IZR_le, Z.pow_le_mono_r; lia|apply ten308_bounds].
Qed.

Lemma sig_finite (sig : N) : (sig <= u64_MAX)%N -> finb (f64_of_N sig).
Proof.
  intros Hs. destruct (sig_bounds sig Hs) as [_ Hf]. exists (bnorm (Z.of_N sig)). split; [apply f64_of_Z_B|exact Hf].
Qed.

Lemma mul_finite (x y : bfloat) : is_finite x = true -> is_finite y = true ->
  is_infinite_f64 (f64_mul (B2SF x) (B2SF y)) = false -> finb (f64_mul (B2SF x) (B2SF y)).
Proof.
  intros Hx Hy. unfold f64_mul. change Value.prec with p53. change Value.emax with e1024. rewrite SFmul_B.
  pose proof (Bmult_correct p53 e1024 prec53_gt_0 prec53_lt_emax mode_NE x y) as H.
  destruct (Rlt_bool _ _).
  - destruct H as (_ & H2 & _). intros _. exists (Bmult mode_NE x y). split; [reflexivity|]. rewrite H2, Hx, Hy. reflexivity.
  - rewrite H. unfold binary_overflow. simpl. discriminate.
Qed.
Lemma div_finite (x y : bfloat) : is_finite x = true -> is_finite y = true -> (1 <= B2R y)%R ->
  finb (f64_div (B2SF x) (B2SF y)).
Proof.
  intros Hx Hy Hy1. unfold f64_div. change Value.prec with p53. change Value.emax with e1024. rewrite SFdiv_B.
  pose proof (Bdiv_correct p53 e1024 prec53_gt_0 prec53_lt_emax mode_NE x y ltac:(lra)) as H. change (round_mode mode_NE) with ZnearestE in H.
  assert (Hq : (Rabs (B2R x / B2R y) <= Rabs (B2R x))%R).
  { unfold Rdiv. rewrite Rabs_mult. rewrite (Rabs_pos_eq (/ B2R y)) by (apply Rlt_le, Rinv_0_lt_compat; lra).
    rewrite <- (Rmult_1_r (Rabs (B2R x))) at 2. apply Rmult_le_compat_l; [apply Rabs_pos|]. rewrite <- Rinv_1. apply Rinv_le; lra. }
  rewrite Rlt_bool_true in H.
  - destruct H as (_ & H2 & _). exists (Bdiv mode_NE x y). split; [reflexivity|]. rewrite H2. exact Hx.
  - apply Rle_lt_trans with (Rabs (B2R x)).
    + apply abs_round_le_generic; [exact valid64|apply valid_rnd_N|apply generic_format_abs; apply generic_format_B2R|exact Hq].
    + apply (abs_B2R_lt_emax p53 e1024 x).
Qed.

Lemma neg1_finite f : finb f -> finb (f64_mul f (f64_of_Z (-1))).
Proof.
  intros (x & -> & Hx). rewrite f64_of_Z_B.
  destruct (int_exact (-1) ltac:(vm_compute; reflexivity)) as [Hv Hf].
  apply mul_finite; [exact Hx|exact Hf|].
  unfold f64_mul. change Value.prec with p53. change Value.emax with e1024. rewrite SFmul_B.
  pose proof (Bmult_correct p53 e1024 prec53_gt_0 prec53_lt_emax mode_NE x (bnorm (-1))) as H. change (round_mode mode_NE) with ZnearestE in H.
  rewrite Hv in H.
  assert (Hfmt : generic_format radix2 fexp64 (B2R x * IZR (-1))).
  { replace (B2R x * IZR (-1))%R with (- B2R x)%R by (simpl; ring). apply generic_format_opp. apply generic_format_B2R. }
  rewrite (round_generic radix2 fexp64 ZnearestE _ Hfmt) in H.
  rewrite Rlt_bool_true in H.
  - destruct H as (_ & H2 & _). rewrite Hx, Hf in H2. cbn [andb] in H2. destruct (Bmult mode_NE x (bnorm (-1))); try discriminate H2; reflexivity.
  - replace (B2R x * IZR (-1))%R with (- B2R x)%R by (simpl; ring). rewrite Rabs_Ropp. apply (abs_B2R_lt_emax p53 e1024 x).
Qed.

Lemma bnorm_not_nan z : B2SF (bnorm z) <> S754_nan.
Proof.
  unfold bnorm. pose proof (binary_normalize_correct p53 e1024 prec53_gt_0 prec53_lt_emax mode_NE z 0 false) as H. cbv zeta in H.
  destruct (Rlt_bool _ _).
  - destruct H as (_ & H2 & _). destruct (binary_normalize _ _ _ _ _ _ _ _); try discriminate; simpl; discriminate.
  - rewrite H. unfold binary_overflow. simpl. discriminate.
Qed.

Lemma mul_by_int_finite (sig : N) z : (1 <= sig <= u64_MAX)%N ->
  is_infinite_f64 (f64_mul (f64_of_N sig) (f64_of_Z z)) = false -> finb (f64_mul (f64_of_N sig) (f64_of_Z z)).
Proof.
  intros [H1 Hs]. unfold f64_of_N. rewrite !f64_of_Z_B.
  destruct (bnorm_between (Z.of_N sig) 1 (bpow radix2 64)) as [Hf [Hge _]];
    [change 1%R with (bpow radix2 0); apply fmt_bpow; lia|apply fmt_bpow; lia|lra|apply bpow_lt; reflexivity| |].
  { change (bpow radix2 64) with (IZR (2 ^ 64)). unfold u64_MAX in Hs. split; apply IZR_le; lia. }
  pose proof (bnorm_not_nan z) as Hnn.
  destruct (bnorm z) as [sy|sy| |sy my ey Hby] eqn:Ey.
  - apply mul_finite; [exact Hf|reflexivity].
  - (* times an infinity *)
    destruct (bnorm (Z.of_N sig)) as [sx|sx| |sx mx ex Hbx]; try discriminate Hf.
    + simpl in Hge. lra.
    + simpl. discriminate.
  - exfalso. apply Hnn. reflexivity.
  - apply mul_finite; [exact Hf|reflexivity].
Qed.

Definition fin_num (n : number) : Prop := match n with Float f => finb f | _ => True end.

Lemma fast_loop_finite fuel : forall f e, finb f -> always finb (f64_from_parts_fast_loop fuel f e).
Proof.
  induction fuel as [|k IH]; intros f e Hf; cbn [f64_from_parts_fast_loop]; [apply always_fuel|].
  destruct (Z.abs e <=? 308)%Z eqn:E.
  - destruct (0 <=? e)%Z eqn:E0.
    + destruct (pow10_finite (Z.to_N e) ltac:(lia)) as (y & Ey & Hy & _). destruct Hf as (x & -> & Hx). rewrite Ey.
      destruct (is_infinite_f64 (f64_mul (B2SF x) (B2SF y))) eqn:Ei; [apply always_err|].
      apply always_ret. apply mul_finite; assumption.
    + destruct (pow10_finite (Z.to_N (- e)) ltac:(lia)) as (y & Ey & Hy & Hy1). destruct Hf as (x & -> & Hx). rewrite Ey.
      apply always_ret. apply div_finite; assumption.
  - destruct (f64_eqb f (S754_zero false)); [apply always_ret; exact Hf|].
    destruct (0 <=? e)%Z; [apply always_err|]. apply IH.
    destruct (pow10_finite 308 ltac:(lia)) as (y & Ey & Hy & Hy1). destruct Hf as (x & -> & Hx). rewrite Ey.
    apply div_finite; assumption.
Qed.

Lemma overflow_true_pos a radix b : radix_ok' radix -> overflow_N a radix b u64_MAX = true -> (1 <= a)%N.
Proof. intros [->|[->|[->| ->]]]; unfold overflow_N, u64_MAX; intros H; lia. Qed.

Section Finite.
  Variable fast : bool.
  Variable std_parse : N -> Z -> f64.
  (* what the build without fast-float-parsing assumes of str::parse::<f64>: a double, never a NaN *)
  Hypothesis Hstd : fast = false -> forall s e, is_infinite_f64 (std_parse s e) = false -> finb (std_parse s e).

  Lemma from_parts_finite pos sig e : (sig <= u64_MAX)%N -> always finb (f64_from_parts fast std_parse pos sig e).
  Proof.
    intros Hs. unfold f64_from_parts. pose proof Hstd as Hstd'. revert Hstd'. destruct fast eqn:Ef; intros Hstd'.
    - apply (always_bind finb); [apply fast_loop_finite; apply sig_finite; exact Hs|].
      intros f Hf. apply always_ret. destruct pos; [exact Hf|apply finb_neg; exact Hf].
    - cbv zeta. destruct (is_infinite_f64 (std_parse sig e)) eqn:Ei; [apply always_err|].
      apply always_ret. pose proof (Hstd' eq_refl sig e Ei) as Hf. destruct pos; [exact Hf|apply neg1_finite; exact Hf].
  Qed.

  Lemma overflow_finite fuel p s pe : always finb (parse_exponent_overflow fuel p s pe).
  Proof.
    unfold parse_exponent_overflow. destruct (_ && _); [apply always_err|]. apply always_skip. intros _. apply always_ret. apply finb_zero.
  Qed.
  Lemma exponent_digits_finite fuel : forall p s pe se e, (s <= u64_MAX)%N ->
    always finb (exponent_digits fast std_parse fuel p s pe se e).
  Proof.
    induction fuel as [|f IH]; intros p s pe se e Hs; cbn [exponent_digits]; [apply always_fuel|].
    apply always_skip. intros c. destruct (is_digit c).
    - apply always_skip. intros _. cbv zeta. destruct (overflow_Z _ _ _ _); [apply overflow_finite|apply IH; exact Hs].
    - cbv zeta. apply from_parts_finite. exact Hs.
  Qed.
  Lemma parse_exponent_finite fuel p s se : (s <= u64_MAX)%N -> always finb (parse_exponent fast std_parse fuel p s se).
  Proof.
    intros Hs. unfold parse_exponent. apply always_skip. intros _. apply always_skip. intros c. apply always_skip. intros pe.
    apply always_skip. intros o. destruct o as [d|]; [|apply always_err].
    destruct (is_digit d); [apply exponent_digits_finite; exact Hs|apply always_err].
  Qed.
  Lemma parse_decimal_finite fuel p s e : (s <= u64_MAX)%N -> always finb (parse_decimal fast std_parse fuel p s e).
  Proof.
    intros Hs. unfold parse_decimal. apply always_skip. intros _.
    apply (always_bind (fun a : N * Z * bool => (fst (fst a) <= u64_MAX)%N)).
    - intros r. pose proof (decimal_digits_sig fuel s e false r) as H.
      destruct (decimal_digits fuel s e false r) as [[a|err] r1]; [|exact I]. apply (H a r1 Hs eq_refl).
    - intros [[sig ex] one] Hsig. cbn [fst] in Hsig. destruct (negb one).
      + apply always_skip. intros o. destruct o; apply always_err.
      + apply always_skip. intros c. destruct (_ || _); [apply parse_exponent_finite; exact Hsig|apply from_parts_finite; exact Hsig].
  Qed.

  Lemma long_integer_finite fuel : forall radix p s e, (1 <= s <= u64_MAX)%N ->
    always finb (parse_long_integer fast std_parse fuel radix p s e).
  Proof.
    induction fuel as [|f IH]; intros radix p s e Hs; cbn [parse_long_integer]; [apply always_fuel|].
    apply always_skip. intros c. destruct (digit_val (10 <? radix)%N c) as [d|].
    - destruct (radix <=? d)%N; [apply always_err|]. apply always_skip. intros _. apply IH. exact Hs.
    - destruct (c =? 46)%N.
      { destruct (negb (radix =? 10)%N); [apply always_err|apply parse_decimal_finite; apply Hs]. }
      destruct (_ || _).
      { destruct (negb (radix =? 10)%N); [apply always_err|apply parse_exponent_finite; apply Hs]. }
      destruct (negb (radix =? 10)%N); [|apply from_parts_finite; apply Hs].
      cbv zeta. unfold scale_pow2_radix.
      destruct (is_infinite_f64 _) eqn:Ei; [apply always_err|]. apply always_ret.
      pose proof (mul_by_int_finite s _ Hs Ei) as Hf. destruct p; [exact Hf|apply finb_neg; exact Hf].
  Qed.

  Lemma num_tail_finite fuel radix p s : (s <= u64_MAX)%N -> always fin_num (parse_num_tail fast std_parse fuel radix p s).
  Proof.
    intros Hs. unfold parse_num_tail. apply always_skip. intros c.
    destruct (c =? 46)%N.
    { destruct (negb _); [apply always_err|]. apply (always_bind finb); [apply parse_decimal_finite; exact Hs|].
      intros f Hf. apply always_ret. exact Hf. }
    destruct (_ || _).
    { destruct (negb _); [apply always_err|]. apply (always_bind finb); [apply parse_exponent_finite; exact Hs|].
      intros f Hf. apply always_ret. exact Hf. }
    destruct p; [apply always_ret; exact I|].
    destruct (_ <? s)%N; apply always_ret.
    - cbn [fin_num]. apply finb_neg. apply sig_finite. exact Hs.
    - unfold num_from_signed. destruct (_ <=? _)%Z; exact I.
  Qed.

  Lemma num_literal_loop_finite fuel : forall radix p s, radix_ok' radix -> (s <= u64_MAX)%N ->
    always fin_num (num_literal_loop fast std_parse fuel radix p s).
  Proof.
    induction fuel as [|f IH]; intros radix p s Hr Hs; cbn [num_literal_loop]; [apply always_fuel|].
    apply always_skip. intros c. destruct (digit_val (10 <? radix)%N c) as [d|] eqn:Ed; [|apply num_tail_finite; exact Hs].
    destruct (radix <=? d)%N eqn:El; [apply always_err|]. apply always_skip. intros _.
    destruct (overflow_N s radix d u64_MAX) eqn:Eo.
    - apply (always_bind finb); [apply long_integer_finite; split; [apply (overflow_true_pos s radix d Hr Eo)|exact Hs]|].
      intros fl Hf. apply always_ret. exact Hf.
    - apply IH; [exact Hr|]. apply (overflow_false_le s radix d u64_MAX Hr ltac:(lia) Eo).
  Qed.
  Lemma num_literal_finite fuel radix p : radix_ok' radix -> always fin_num (parse_num_literal fast std_parse fuel radix p).
  Proof.
    intros Hr. unfold parse_num_literal. apply always_skip. intros o. destruct o as [c|]; [|apply always_err].
    destruct (digit_val true c) as [d|] eqn:Ed; [|apply always_err]. destruct (radix <=? d)%N eqn:El; [apply always_err|].
    apply num_literal_loop_finite; [exact Hr|]. pose proof (digit_val_lt _ _ _ Ed). unfold u64_MAX. lia.
  Qed.
  Lemma num_token_finite fuel radix p : radix_ok' radix -> always fin_num (parse_num_token fast std_parse fuel radix p).
  Proof.
    intros Hr. unfold parse_num_token. apply (always_bind fin_num); [apply num_literal_finite; exact Hr|].
    intros n Hn. apply always_skip. intros o. destruct o as [c|]; [destruct (is_delimiter c); [apply always_ret; exact Hn|apply always_err]|apply always_ret; exact Hn].
  Qed.
  Lemma radix_literal_finite fuel radix : radix_ok' radix -> always fin_num (parse_radix_literal fast std_parse fuel radix).
  Proof.
    intros Hr. unfold parse_radix_literal. apply always_skip. intros c.
    destruct (c =? 45)%N; [apply always_skip; intros _; apply num_token_finite; exact Hr|].
    destruct (c =? 43)%N; [apply always_skip; intros _; apply num_token_finite; exact Hr|apply num_token_finite; exact Hr].
  Qed.
  Lemma number_finite fuel : always fin_num (parse_number fast std_parse fuel).
  Proof.
    unfold parse_number. apply always_skip. intros c. destruct (c =? 35)%N; [|apply radix_literal_finite; apply rok10].
    apply always_skip. intros _. apply always_skip. intros o. destruct o as [x|]; [|apply always_err].
    repeat match goal with |- always _ (if ?c then _ else _) => destruct c end;
      first [apply radix_literal_finite; first [apply rok2|apply rok8|apply rok10|apply rok16] | apply always_err].
  Qed.
End Finite.
