(* C08: a token is read as a number only if the whole token is a numeric
   literal. Whatever the options, when the token dispatcher hands back a number,
   either (leading-digit symbols enabled, digit-initial token) the whole symbol
   token - scanned to its terminator - was accepted by the literal parser with
   nothing left over, or the literal parser's result was followed by the end
   of the input or a delimiter: text such as 1+ 12ab 1.5.6 never yields the
   number for its numeric prefix. *)
From Coq Require Import SpecFloat Lia ZifyBool ZifyNat ZifyN.
Require Import Base Value Float PrintOptions ParseOptions Utf8 Reader Scan Num NumberOps Parser.

Section NumberToken.
  Variable ro : parse_options.
  Variable alpha : N -> bool.
  Variable fast : bool.
  Variable std_parse : N -> Z -> f64.

  Definition ends (r1 r' : reader) : Prop :=
    peek r1 = (Ok None, r') \/ exists c, peek r1 = (Ok (Some c), r') /\ is_delimiter c = true.
  Definition literal_then_end (fuel : nat) (n : number) (r' : reader) : Prop :=
    exists rs r1 radix pos, parse_num_literal fast std_parse fuel radix pos rs = (Ok n, r1) /\ ends r1 r'.
  Definition whole_symbol (fuel : nat) (r : reader) (n : number) (r' : reader) : Prop :=
    ro_digit ro = true /\ exists name, parse_symbol fuel r = (Ok name, r') /\ number_of_symbol fast std_parse fuel name = Some n.

  Definition Q (fuel : nat) (r0 : reader) (tok : token) (r' : reader) : Prop :=
    match tok with TNumber n => whole_symbol fuel r0 n r' \/ literal_then_end fuel n r' | _ => True end.
  Definition po {A} (m : M A) (P : A -> reader -> Prop) : Prop := forall r a r', m r = (Ok a, r') -> P a r'.

  Lemma po_ret {A} (a : A) (P : A -> reader -> Prop) : (forall r, P a r) -> po (ret a) P.
  Proof. intros H r a' r' E. inversion E; subst. apply H. Qed.
  Lemma po_bind {A B} (m : M A) (f : A -> M B) P : (forall a, po (f a) P) -> po (bind m f) P.
  Proof. intros H r b r' E. unfold bind in E. destruct (m r) as [[a|e] r1]; [|discriminate]. exact (H a r1 b r' E). Qed.
  Lemma po_err {A} c (P : A -> reader -> Prop) : po (error c) P /\ po (peek_error c) P.
  Proof.
    split; intros r a r' E; [unfold error in E; destruct (r_position r)|unfold peek_error in E; destruct (r_peek_position r)]; discriminate.
  Qed.
  Lemma po_fuel {A} (P : A -> reader -> Prop) : po out_of_fuel P.
  Proof. intros r a r' E. discriminate. Qed.

  Lemma num_token_ends fuel radix pos : po (parse_num_token fast std_parse fuel radix pos) (fun n r' => literal_then_end fuel n r').
  Proof.
    intros r n r' E. unfold parse_num_token, bind in E.
    destruct (parse_num_literal fast std_parse fuel radix pos r) as [[n1|e] r1] eqn:El; [|discriminate].
    destruct (peek r1) as [[[c|]|e] r2] eqn:Ep; try discriminate.
    - destruct (is_delimiter c) eqn:Ed.
      + inversion E; subst. exists r, r1, radix, pos. split; [exact El|]. right. exists c. split; [exact Ep|exact Ed].
      + unfold peek_error in E. destruct (r_peek_position r2). discriminate.
    - inversion E; subst. exists r, r1, radix, pos. split; [exact El|]. left. exact Ep.
  Qed.
  Lemma radix_literal_ends fuel radix : po (parse_radix_literal fast std_parse fuel radix) (fun n r' => literal_then_end fuel n r').
  Proof.
    unfold parse_radix_literal. apply po_bind. intros c.
    destruct (c =? 45); [apply po_bind; intros _; apply num_token_ends|].
    destruct (c =? 43); [apply po_bind; intros _; apply num_token_ends|apply num_token_ends].
  Qed.
  Lemma number_then_tok fuel r0 (m : M number) :
    po m (fun n r' => literal_then_end fuel n r') -> po (n <- m ;; ret (TNumber n)) (Q fuel r0).
  Proof.
    intros H r tok r' E. unfold bind in E. destruct (m r) as [[n|e] r1] eqn:Em; [|discriminate].
    inversion E; subst. cbn [Q]. right. exact (H r n r' Em).
  Qed.

  Lemma symbol_token_not_number name : match symbol_token ro name with TNumber _ => False | _ => True end.
  Proof.
    unfold symbol_token. destruct (ro_kw_postfix ro && (1 <? length name)%nat && ends_with_colon name); [exact I|].
    destruct ((match ro_nil ro with NsDefault => false | _ => true end) && beq_bytes name (s2b "nil")); [destruct (ro_nil ro); exact I|].
    destruct ((match ro_t ro with TsDefault => false | _ => true end) && beq_bytes name (s2b "t")); exact I.
  Qed.
  Lemma po_symbol_tok fuel r0 (m : M bytes) : po (name <- m ;; ret (symbol_token ro name)) (Q fuel r0).
  Proof.
    apply po_bind. intros name. apply po_ret. intros r. pose proof (symbol_token_not_number name) as H.
    unfold Q. destruct (symbol_token ro name); try exact I. contradiction.
  Qed.

  Ltac triv :=
    repeat first
      [ apply po_ret; intros ?; exact I
      | apply po_err
      | apply po_fuel
      | apply po_symbol_tok
      | apply number_then_tok; first [apply radix_literal_ends | apply num_token_ends]
      | apply po_bind; intros ?
      | match goal with
        | |- po (match ?x with _ => _ end) _ => destruct x
        | |- po (if ?x then _ else _) _ => destruct x
        end ].

  Ltac arm E := match type of E with ?m ?r = (Ok ?tok, ?r') => refine ((_ : po m (Q _ _)) r tok r' E) end.

  Theorem number_token_whole fuel b r tok r' :
    parse_token ro alpha fast std_parse fuel b r = (Ok tok, r') -> Q fuel r tok r'.
  Proof.
    intros E. unfold parse_token in E.
    destruct (b =? 35); [arm E; triv|].
    destruct ((b =? 45) || (b =? 43)); [arm E; triv|].
    destruct (is_digit b).
    { destruct (ro_digit ro) eqn:Ed; [|arm E; triv].
      unfold bind in E. destruct (parse_symbol fuel r) as [[name|e] r1] eqn:Es; [|discriminate].
      destruct (number_of_symbol fast std_parse fuel name) as [n|] eqn:En.
      - inversion E; subst. cbn [Q]. left. split; [exact Ed|]. exists name. split; [exact Es|exact En].
      - inversion E; subst. pose proof (symbol_token_not_number name) as H. unfold Q. destruct (symbol_token ro name); try exact I. contradiction. }
    destruct (b =? 34); [arm E; triv|].
    destruct (b =? 40); [arm E; triv|].
    destruct (b =? 91); [arm E; triv|].
    destruct (b =? 58); [arm E; triv|].
    destruct (is_ascii_alpha b); [arm E; triv|].
    destruct ((b =? 63) && _); [arm E; triv|].
    destruct (b =? 39); [arm E; triv|].
    destruct (b =? 96); [arm E; triv|].
    destruct (b =? 44); [arm E; triv|].
    destruct (127 <? b); [arm E; triv|].
    destruct (memb b SYMBOL_EXTENDED); [arm E; triv|].
    unfold peek_error in E. destruct (r_peek_position r). discriminate.
  Qed.
End NumberToken.
