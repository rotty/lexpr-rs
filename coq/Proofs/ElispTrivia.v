(* C12 / C02, the Emacs Lisp dialect: whitespace and line comments at token
   boundaries do not change what is read (the layouts of TriviaProofs, with
   brackets for vectors and the documented folding at the leaves). *)
From Coq Require Import SpecFloat ZifyBool ZifyNat ZifyN.
Require Import Base Value Float PrintOptions Printer ParseOptions Utf8 Reader Scan Num NumberOps Parser Depth.
Require Import ReaderProofs TokenProofs RoundtripProofs TriviaProofs.
Require Import ElispText ElispTokens ElispRoundtrip.

Fixpoint elval (l : lay) : value :=
  match l with
  | LAtom v => efold v
  | LSeq vec b => if vec then Vector (ebitems b) else build (ebitems b) (ebtail b)
  | LBytes _ os _ => Bytes (map snd os)
  end
with ebitems (b : body) : list value :=
  match b with BItem _ e b' => elval e :: ebitems b' | _ => [] end
with ebtail (b : body) : value :=
  match b with BEnd _ => Null | BDot _ _ t _ => elval t | BItem _ _ b' => ebtail b' end.

Section ElispTrivia.
  Variable ryu : f64 -> bytes.
  Variable alpha : N -> bool.
  Variable fast : bool.
  Variable std_parse : N -> Z -> f64.
  Local Notation ro := elisp_ro.
  Local Notation txt := (etxt ryu).
  Local Notation rt_ok := ert_ok.
  Local Notation K := ElispRoundtrip.K.
  Local Notation reads := (reads alpha fast std_parse ro).
  Local Notation reads_list := (reads_list alpha fast std_parse ro).
  Local Notation reads_vector := (reads_vector alpha fast std_parse ro).
  Local Notation list_step := (list_step alpha fast std_parse ro).

  Definition closer (vec : bool) : N := if vec then 93 else 41.

  Fixpoint eltxt (l : lay) : bytes :=
    match l with
    | LAtom v => txt v
    | LSeq vec b => (if vec then [91] else [40]) ++ ebtxt b ++ [closer vec]
    | LBytes _ _ _ => []           (* the Emacs Lisp printer writes bytes as a unibyte string: no octet tokens *)
    end
  with ebtxt (b : body) : bytes :=
    match b with
    | BEnd cp => cp
    | BDot p1 p2 t cp => p1 ++ 46 :: p2 ++ eltxt t ++ cp
    | BItem p e b' => p ++ eltxt e ++ ebtxt b'
    end.

  (* as lok of TriviaProofs, over eltxt; no octet layouts *)
  Fixpoint elok (l : lay) : Prop :=
    match l with
    | LAtom v => rt_ok v
    | LSeq vec b => ebok vec true b
    | LBytes _ _ _ => False
    end
  with ebok (vec first : bool) (b : body) {struct b} : Prop :=
    match b with
    | BEnd cp => trivia cp
    | BDot p1 p2 t cp => vec = false /\ first = false /\ trivia p1 /\ p1 <> [] /\ trivia p2 /\
                         delim_ok (p2 ++ eltxt t) /\ elok t /\ trivia cp
    | BItem p e b' => trivia p /\ (first = true \/ delim_ok (p ++ eltxt e)) /\ elok e /\ ebok vec false b'
    end.

  Definition EPL (l : lay) : Prop := elok l -> reads (eltxt l) (elval l) (ldepth l).

  Definition EPB (b : body) : Prop :=
    forall vec first, ebok vec first b ->
      if vec then reads_vector (closer vec) (ebtxt b) (ebitems b) (bdepth b)
      else reads_list (closer vec) (ebtxt b) (build (ebitems b) (ebtail b)) (bdepth b) (negb first).

  Lemma closer_cases vec : closer vec = 41 \/ closer vec = 93.
  Proof. destruct vec; [right|left]; reflexivity. Qed.
  Lemma closer_delim vec rest : delim_ok (closer vec :: rest).
  Proof. destruct vec; reflexivity. Qed.

  Lemma eltxt_head l : elok l ->
    exists b t, eltxt l = b :: t /\ starts_datum b /\ is_closer b = false /\ (b = 46 -> exists v, l = LAtom v).
  Proof. clear alpha fast std_parse.
    destruct l as [v|vec b|p0 os cp]; intros Hok; [| |contradiction].
    - destruct (ElispRoundtrip.txt_head ryu v Hok) as (b & t & E & Hs & Hc & _).
      exists b, t. repeat split; auto; try apply Hs. intros _. eexists; reflexivity.
    - destruct vec; cbn [eltxt app].
      + exists 91, (ebtxt b ++ [closer true]). repeat split; try reflexivity; discriminate.
      + exists 40, (ebtxt b ++ [closer false]). repeat split; try reflexivity; discriminate.
  Qed.

  Lemma eltxt_nonempty l : elok l -> (1 <= length (eltxt l))%nat.
  Proof. clear alpha fast std_parse. intros H. destruct (eltxt_head l H) as (b & t & E & _). rewrite E. cbn [length]. lia. Qed.

  Lemma EPL_atom v : EPL (LAtom v).
  Proof.
    intros Hok. exact (P_reads ryu alpha fast std_parse v (proj1 (ElispRoundtrip.next_value_reads_text ryu alpha fast std_parse v)) Hok).
  Qed.

  (* one element of a list body: only a printed symbol can begin with a dot *)
  Lemma elelem_step e : EPL e -> elok e -> list_step 41 (eltxt e) (elval e) (ldepth e).
  Proof.
    intros HP Hok. destruct e as [v|vec b|p0 os cp]; [| |contradiction].
    - intros f r D acc pre more Hpre.
      exact (ElispRoundtrip.elem_step ryu alpha fast std_parse v
               (proj1 (ElispRoundtrip.next_value_reads_text ryu alpha fast std_parse v)) f r D acc pre more Hpre Hok).
    - destruct (eltxt_head (LSeq vec b) Hok) as (c & t & E & Hst & Hcl & H46).
      apply (list_item alpha fast std_parse ro 41 _ _ _ c t (HP Hok) E Hst Hcl).
      intros E46. destruct (H46 E46) as [v Hv]. discriminate Hv.
  Qed.

  Lemma ebtxt_delim vec b rest : ebok vec false b -> delim_ok (ebtxt b ++ closer vec :: rest).
  Proof. clear alpha fast std_parse.
    destruct b as [cp|p1 p2 t cp|p e b']; cbn [ebok ebtxt].
    - intros Hcp. apply trivia_delim; [exact Hcp|apply closer_delim].
    - intros (_ & _ & Hp1 & Hne & _). rewrite <- app_assoc. apply delim_ok_app; [exact Hne|].
      destruct p1 as [|c p1']; [contradiction|].
      exact (trivia_delim (c :: p1') 41 [] Hp1 eq_refl).
    - intros (Hp & [Hf|Hd] & Hok & _); [discriminate|]. rewrite app_assoc, <- app_assoc.
      apply delim_ok_app; [|exact Hd].
      intros E. apply app_eq_nil in E. destruct E as [_ E]. pose proof (eltxt_nonempty e Hok) as Hl. rewrite E in Hl. cbn in Hl. lia.
  Qed.

  Lemma EPB_end cp : EPB (BEnd cp).
  Proof. intros vec first Hok. destruct vec; [apply vector_end|apply list_end]; solve [apply closer_cases|exact Hok]. Qed.

  Lemma EPB_item p e b : EPL e -> EPB b -> EPB (BItem p e b).
  Proof.
    intros HPe HPb vec first (Hp & _ & Hoke & Hokb). specialize (HPb vec false Hokb).
    destruct (eltxt_head e Hoke) as (c & t & E & Hst & Hcl & _).
    destruct vec.
    - exact (vector_cons alpha fast std_parse ro 93 p (eltxt e) (elval e) (ldepth e) c t (ebtxt b) (ebitems b) (bdepth b)
               (HPe Hoke) E Hst Hcl Hp (fun rest => ebtxt_delim true b rest Hokb) HPb).
    - exact (list_cons alpha fast std_parse ro 41 p (eltxt e) (elval e) (ldepth e) (ebtxt b) _ (bdepth b) _ _
               (elelem_step e HPe Hoke) (eltxt_nonempty e Hoke) Hp (fun rest => ebtxt_delim false b rest Hokb) HPb).
  Qed.

  Lemma EPB_dot p1 p2 t cp : EPL t -> EPB (BDot p1 p2 t cp).
  Proof.
    intros HPt vec first (-> & -> & Hp1 & Hne & Hp2 & Hd2 & Hokt & Hcp).
    exact (list_dot alpha fast std_parse ro 41 p1 p2 (eltxt t) (elval t) (ldepth t) cp (or_introl eq_refl)
             (HPt Hokt) (eltxt_nonempty t Hokt) Hp1 Hp2 Hd2 Hcp).
  Qed.

  Lemma EPL_seq vec b : EPB b -> EPL (LSeq vec b).
  Proof.
    intros HPb Hok. specialize (HPb vec true Hok). destruct vec.
    - exact (vector_seq alpha fast std_parse ro 93 91 [] (ebtxt b) (ebitems b) (bdepth b) (or_intror eq_refl)
               (starts_byte 91 eq_refl eq_refl) (etok_vecopen alpha fast std_parse) HPb).
    - exact (list_seq alpha fast std_parse ro 41 40 [] (ebtxt b) _ (bdepth b) (or_introl eq_refl)
               (starts_byte 40 eq_refl eq_refl) (etok_listopen alpha fast std_parse) HPb).
  Qed.

  Theorem elisp_reads_layout : (forall l, EPL l) /\ (forall b, EPB b).
  Proof.
    apply lay_body_ind.
    - apply EPL_atom.
    - intros vec b Hb. apply EPL_seq. exact Hb.
    - intros p0 os cp Hok. contradiction.
    - apply EPB_end.
    - intros p1 p2 t Ht cp. apply EPB_dot. exact Ht.
    - intros p e He b Hb. apply EPB_item; assumption.
  Qed.

  Theorem elisp_layout_from_trait k l pre post : trivia pre -> trivia_eof post -> elok l -> (ldepth l <= 127)%nat ->
    from_trait ro alpha fast std_parse k (bytes_events (pre ++ eltxt l ++ post)) = POk (elval l).
  Proof.
    intros Hpre Hpost Hok Hd.
    exact (from_trait_reads alpha fast std_parse ro (eltxt l) (elval l) (ldepth l) k pre post
             (proj1 elisp_reads_layout l Hok) Hd Hpre Hpost).
  Qed.

  Fixpoint seq_eltxt (ls : list (bytes * lay)) (post : bytes) : bytes :=
    match ls with [] => post | (p, l) :: ls' => p ++ eltxt l ++ seq_eltxt ls' post end.

  Fixpoint eseq_ok (first : bool) (D : N) (ls : list (bytes * lay)) : Prop :=
    match ls with
    | [] => True
    | (p, l) :: ls' => trivia p /\ (first = true \/ delim_ok (p ++ eltxt l)) /\ elok l /\ N.of_nat (ldepth l) < D /\
                       eseq_ok false D ls'
    end.

  Lemma seq_eltxt_delim D ls post : eseq_ok false D ls -> trivia_eof post -> delim_ok (seq_eltxt ls post).
  Proof. clear alpha fast std_parse.
    destruct ls as [|[p l] ls']; cbn [seq_eltxt eseq_ok].
    - intros _ Hpost. apply trivia_eof_delim. exact Hpost.
    - intros (_ & [Hf|Hd] & Hok & _) _; [discriminate|]. rewrite app_assoc. apply delim_ok_app; [|exact Hd].
      intros E. apply app_eq_nil in E. destruct E as [_ E]. pose proof (eltxt_nonempty l Hok) as Hl. rewrite E in Hl. cbn in Hl. lia.
  Qed.

  Theorem elisp_iterate_layouts ls : forall first post fuel n r D, eseq_ok first D ls -> trivia_eof post -> D <= 128 ->
    (length (seq_eltxt ls post) + K + 2 <= fuel)%nat -> (length ls < n)%nat -> at_bytes r (seq_eltxt ls post) ->
    iterate_values ro alpha fast std_parse fuel n (mkp r D) = map (fun pl => POk (elval (snd pl))) ls.
  Proof.
    induction ls as [|[p l] ls IH]; intros first post fuel n r D Hall Hpost HD Hf Hn Ha;
      (destruct n as [|n]; [cbn in Hn; lia|]); cbn [seq_eltxt] in *.
    - apply (iterate_end alpha fast std_parse ro post); [exact Hpost|unfold ElispRoundtrip.K in Hf; lia|exact Ha].
    - cbn [iterate_values]. destruct Hall as (Hp & _ & Hok & Hd & Hall'). rewrite !app_length in Hf.
      destruct (proj1 elisp_reads_layout l Hok fuel r D p (seq_eltxt ls post) Hp Hd HD
                  ltac:(unfold ElispRoundtrip.K in Hf; unfold RoundtripProofs.K; lia) Ha
                  (seq_eltxt_delim D ls post Hall' Hpost)) as (r1 & E1 & Ha1 & _).
      rewrite E1. cbn [map snd]. f_equal. apply (IH false post); auto; try lia. cbn [length] in Hn. lia.
  Qed.

  (* trivia carries no information: two layouts of the same value read alike *)
  Corollary elisp_same_value_same_result k l1 l2 pre1 post1 pre2 post2 :
    trivia pre1 -> trivia_eof post1 -> elok l1 -> (ldepth l1 <= 127)%nat ->
    trivia pre2 -> trivia_eof post2 -> elok l2 -> (ldepth l2 <= 127)%nat -> elval l1 = elval l2 ->
    from_trait ro alpha fast std_parse k (bytes_events (pre1 ++ eltxt l1 ++ post1)) =
    from_trait ro alpha fast std_parse k (bytes_events (pre2 ++ eltxt l2 ++ post2)).
  Proof.
    intros H1 H2 H3 H4 H5 H6 H7 H8 E. rewrite (elisp_layout_from_trait k l1 pre1 post1), (elisp_layout_from_trait k l2 pre2 post2); auto.
    now rewrite E.
  Qed.

End ElispTrivia.
