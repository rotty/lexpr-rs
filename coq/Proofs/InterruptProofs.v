(* C06: io::ErrorKind::Interrupted results interleaved anywhere in a stream are
   invisible: the parser returns the same values, the same errors at the same
   positions, and ends in the same state as on the stream without them. An
   instance of the two-run traversal (SimFramework). *)
From Coq Require Import SpecFloat.
Require Import Base Value Float PrintOptions ParseOptions Utf8 Reader Scan Num NumberOps Parser.
Require Import RelFramework SimFramework.

Fixpoint strip (l : list event) : list event :=
  match l with
  | [] => []
  | EInterrupted :: l' => strip l'
  | e :: l' => e :: strip l'
  end.

Lemma strip_skip l : strip (skip_intr l) = strip l.
Proof. induction l as [|[b| |e] l IH]; cbn [skip_intr strip]; auto. Qed.

Lemma skip_intr_strip l1 l2 : strip l1 = strip l2 ->
  (skip_intr l1 = [] /\ skip_intr l2 = []) \/
  exists e t1 t2, skip_intr l1 = e :: t1 /\ skip_intr l2 = e :: t2 /\ e <> EInterrupted /\ strip t1 = strip t2.
Proof.
  intros H. rewrite <- (strip_skip l1), <- (strip_skip l2) in H.
  pose proof (skip_intr_head l1) as H1. pose proof (skip_intr_head l2) as H2.
  destruct (skip_intr l1) as [|e1 t1]; destruct (skip_intr l2) as [|e2 t2].
  - left. auto.
  - destruct e2; cbn [strip] in H; try discriminate; contradiction.
  - destruct e1; cbn [strip] in H; try discriminate; contradiction.
  - right. destruct e1 as [b1| |f1]; try contradiction; destruct e2 as [b2| |f2]; try contradiction; cbn [strip] in H;
      inversion H; subst; eexists _, t1, t2; repeat split; auto; discriminate.
Qed.

(* two stream readers that differ only in Interrupted results not yet passed;
   any other two readers are related only to themselves *)
Definition irel (r1 r2 : reader) : Prop :=
  (rk r1 = SrcIo /\ rk r2 = SrcIo /\ rline r1 = rline r2 /\ rcol r1 = rcol r2 /\ rpending r1 = rpending r2 /\
   if rpending r1 then exists b l1 l2, rinput r1 = EByte b :: l1 /\ rinput r2 = EByte b :: l2 /\ strip l1 = strip l2
   else strip (rinput r1) = strip (rinput r2))
  \/ (rk r1 <> SrcIo /\ r1 = r2).

Lemma irel_rk r1 r2 : irel r1 r2 -> rk r1 = rk r2.
Proof. intros [(A & B & _)|[_ ->]]; congruence. Qed.

Lemma irel_io r1 r2 : irel r1 r2 -> (rk r1 = SrcIo <-> rk r2 = SrcIo).
Proof. intros H. rewrite (irel_rk r1 r2 H). tauto. Qed.

Lemma irel_same r : rk r <> SrcIo -> irel r r.
Proof. intros H. right. auto. Qed.

Lemma same_out {A} (m : M A) r : rk r <> SrcIo -> rk (snd (m r)) = rk r -> out2 irel r (m r) (m r).
Proof. intros H Hk. split; [reflexivity|]. split; [right; split; [congruence|reflexivity]|exact Hk]. Qed.

Lemma consume_irel r1 r2 b l1 l2 : rk r1 = SrcIo -> rk r2 = SrcIo -> rline r1 = rline r2 -> rcol r1 = rcol r2 ->
  strip l1 = strip l2 -> irel (consume r1 b l1) (consume r2 b l2).
Proof.
  intros K1 K2 L C S. left. unfold consume. rewrite L, C. destruct (advance (rline r2) (rcol r2) b) as [ln cl]. cbn. auto 10.
Qed.

Lemma isim_peek : sim irel peek.
Proof.
  intros r1 r2 [(K1 & K2 & L & C & P & H)|[K ->]].
  - unfold peek, r_peek, out2. rewrite <- P. destruct (rpending r1) eqn:Ep.
    + destruct H as (b & l1 & l2 & E1 & E2 & S). rewrite E1, E2. cbn [fst snd].
      split; [reflexivity|]. split; [|reflexivity]. left. rewrite Ep, <- P. repeat split; auto. exists b, l1, l2. auto.
    + destruct (skip_intr_strip _ _ H) as [[E1 E2]|(e & t1 & t2 & E1 & E2 & Hne & S)]; rewrite E1, E2.
      * cbn. split; [reflexivity|]. split; [|first [reflexivity|exact K1]]. left. cbn. auto 10.
      * destruct e as [b| |f]; [| contradiction |]; cbn [fst snd].
        -- split; [reflexivity|]. split; [|first [reflexivity|exact K1]]. left. cbn. repeat split; auto. exists b, t1, t2. auto.
        -- split; [reflexivity|]. split; [|first [reflexivity|exact K1]]. left. cbn. auto 10.
  - apply same_out; [exact K|]. unfold peek, r_peek. destruct (rpending r2).
    + destruct (rinput r2) as [|[b| |e] l]; reflexivity.
    + destruct (skip_intr (rinput r2)) as [|[b| |e] l]; reflexivity.
Qed.

Lemma isim_next : sim irel next_char.
Proof.
  intros r1 r2 [(K1 & K2 & L & C & P & H)|[K ->]].
  - unfold next_char, r_next, out2. rewrite <- P. destruct (rpending r1) eqn:Ep.
    + destruct H as (b & l1 & l2 & E1 & E2 & S). rewrite E1, E2. cbn [fst snd].
      split; [reflexivity|]. split; [apply consume_irel; auto|rewrite consume_rk; reflexivity].
    + destruct (skip_intr_strip _ _ H) as [[E1 E2]|(e & t1 & t2 & E1 & E2 & Hne & S)]; rewrite E1, E2.
      * cbn. split; [reflexivity|]. split; [|first [reflexivity|exact K1]]. left. cbn. auto 10.
      * destruct e as [b| |f]; [| contradiction |]; cbn [fst snd].
        -- split; [reflexivity|]. split; [apply consume_irel; auto|rewrite consume_rk; reflexivity].
        -- split; [reflexivity|]. split; [|first [reflexivity|exact K1]]. left. cbn. auto 10.
  - apply same_out; [exact K|]. unfold next_char, r_next.
    destruct (if rpending r2 then rinput r2 else skip_intr (rinput r2)) as [|[b| |e] l]; try reflexivity. apply consume_rk.
Qed.

Lemma discard_irel r1 r2 : irel r1 r2 -> irel (r_discard r1) (r_discard r2) /\ rk (r_discard r1) = rk r1.
Proof.
  intros [(K1 & K2 & L & C & P & H)|[K ->]].
  - unfold r_discard. rewrite K1, K2, <- P. destruct (rpending r1) eqn:Ep.
    + destruct H as (b & l1 & l2 & E1 & E2 & S). rewrite E1, E2. split; [apply consume_irel; auto|rewrite consume_rk; exact K1].
    + split; [|first [reflexivity|exact K1]]. left. rewrite Ep. auto 10.
  - split; [right; split; [|reflexivity]|].
    + unfold r_discard. destruct (rk r2) eqn:Ek; try contradiction; destruct (rinput r2) as [|[b| |e] l]; rewrite ?consume_rk; congruence.
    + unfold r_discard. destruct (rk r2) eqn:Ek; try (destruct (rpending r2)); destruct (rinput r2) as [|[b| |e] l]; rewrite ?consume_rk; congruence.
Qed.
Lemma isim_eat : sim irel eat_char.
Proof. intros r1 r2 H. unfold eat_char, out2. cbn [fst snd]. destruct (discard_irel r1 r2 H) as [A B]. auto. Qed.

Lemma irel_position r1 r2 : irel r1 r2 -> r_position r1 = r_position r2.
Proof. intros [(K1 & K2 & L & C & _)|[_ ->]]; [unfold r_position; congruence|reflexivity]. Qed.
Lemma irel_peek_position r1 r2 : irel r1 r2 -> r_peek_position r1 = r_peek_position r2.
Proof.
  intros [(K1 & K2 & L & C & P & H)|[_ ->]]; [|reflexivity]. unfold r_peek_position. rewrite K1, K2, <- P.
  destruct (rpending r1); [|congruence]. destruct H as (b & l1 & l2 & E1 & E2 & _). rewrite E1, E2. congruence.
Qed.
Lemma isim_error A c : sim irel (@error A c).
Proof.
  intros r1 r2 H. unfold error, out2. rewrite (irel_position r1 r2 H). destruct (r_position r2). cbn [fst snd]. auto.
Qed.
Lemma isim_peek_error A c : sim irel (@peek_error A c).
Proof.
  intros r1 r2 H. unfold peek_error, out2. rewrite (irel_peek_position r1 r2 H). destruct (r_peek_position r2). cbn [fst snd]. auto.
Qed.
Lemma isim_error_consume A c : sim irel (@error_consume A c).
Proof.
  intros r1 r2 H. unfold error_consume, peek_error, out2. rewrite (irel_peek_position r1 r2 H). destruct (r_peek_position r2).
  cbn [fst snd]. destruct (discard_irel r1 r2 H) as [A1 B1]. auto.
Qed.
Lemma isimS_take_run : simS irel take_run.
Proof.
  intros r1 r2 [(K1 & _)|[K ->]] Hio; [contradiction|]. apply same_out; [exact K|].
  unfold take_run. destruct (span_plain (rinput r2) []) as [run rest].
  destruct rest as [|[b| |e] rest']; cbn [snd]; rewrite ?consume_rk; unfold advance_over; destruct (fold_left _ _ _); reflexivity.
Qed.
Lemma isimS_take_symbol : simS irel take_symbol_run.
Proof.
  intros r1 r2 [(K1 & _)|[K ->]] Hio; [contradiction|]. apply same_out; [exact K|].
  unfold take_symbol_run. destruct (span_symbol (rinput r2) []) as [run rest]. cbn [snd].
  unfold advance_over; destruct (fold_left _ _ _); reflexivity.
Qed.

Section Invisible.
  Variable ro : parse_options.
  Variable alpha : N -> bool.
  Variable fast : bool.
  Variable std_parse : N -> Z -> f64.

  Lemma isim_symbol_rd fuel scratch : sim irel (parse_symbol_rd fuel scratch).
  Proof. exact (sim_parse_symbol_rd_same irel irel_io isim_peek isim_eat isim_error isimS_take_symbol fuel scratch irel_rk). Qed.
  Lemma isim_r6rs_str_rd fuel : sim irel (parse_r6rs_str_rd fuel).
  Proof. exact (sim_parse_r6rs_str_rd_same irel irel_io isim_next isim_error isimS_take_run fuel irel_rk). Qed.

  Definition iprel := prel irel.

  Lemma init_related inp1 inp2 : strip inp1 = strip inp2 -> iprel (init_state SrcIo inp1) (init_state SrcIo inp2).
  Proof. intros H. split; [|reflexivity]. left. cbn. auto 10. Qed.

  Theorem next_value_interrupts fuel s1 s2 : iprel s1 s2 ->
    fst (next_value ro alpha fast std_parse fuel s1) = fst (next_value ro alpha fast std_parse fuel s2) /\
    iprel (snd (next_value ro alpha fast std_parse fuel s1)) (snd (next_value ro alpha fast std_parse fuel s2)).
  Proof.
    exact (proj1 (psim_values irel irel_io isim_peek isim_next isim_eat isim_error isim_peek_error isim_error_consume
                    isimS_take_run isim_symbol_rd isim_r6rs_str_rd fast std_parse ro alpha fuel) s1 s2).
  Qed.
  Theorem next_datum_interrupts fuel s1 s2 : iprel s1 s2 ->
    fst (next_datum ro alpha fast std_parse fuel s1) = fst (next_datum ro alpha fast std_parse fuel s2) /\
    iprel (snd (next_datum ro alpha fast std_parse fuel s1)) (snd (next_datum ro alpha fast std_parse fuel s2)).
  Proof.
    exact (proj1 (psim_datums irel irel_io isim_peek isim_next isim_eat isim_error isim_peek_error isim_error_consume
                    isimS_take_run isim_symbol_rd isim_r6rs_str_rd fast std_parse ro alpha fuel) s1 s2).
  Qed.

  Theorem iterate_values_interrupts fuel n : forall s1 s2, iprel s1 s2 ->
    iterate_values ro alpha fast std_parse fuel n s1 = iterate_values ro alpha fast std_parse fuel n s2.
  Proof.
    induction n as [|n IH]; intros s1 s2 H; cbn [iterate_values]; [reflexivity|].
    destruct (next_value_interrupts fuel s1 s2 H) as [E Hr].
    destruct (next_value ro alpha fast std_parse fuel s1) as [[[v|]|e] s1'];
      destruct (next_value ro alpha fast std_parse fuel s2) as [[[v2|]|e2] s2']; cbn [fst snd] in *; try discriminate;
      inversion E; subst; try reflexivity; f_equal; apply IH; exact Hr.
  Qed.

  (* the single-shot entry point, with the same step budget on both sides *)
  Definition from_trait_with (fuel : nat) (k : src_kind) (inp : list event) : pres value :=
    fst ((pbind (expect_value ro alpha fast std_parse fuel) (fun v => pbind (expect_end_p fuel) (fun _ => pret v))) (init_state k inp)).
  Lemma from_trait_is inp k : from_trait ro alpha fast std_parse k inp = from_trait_with (fuel_for inp) k inp.
  Proof. reflexivity. Qed.

  Theorem from_trait_interrupts fuel inp1 inp2 : strip inp1 = strip inp2 ->
    from_trait_with fuel SrcIo inp1 = from_trait_with fuel SrcIo inp2.
  Proof.
    intros H. unfold from_trait_with.
    assert (Hs : psim irel (pbind (expect_value ro alpha fast std_parse fuel) (fun v => pbind (expect_end_p fuel) (fun _ => pret v)))).
    { apply psim_bind; [apply (psim_expect_value irel irel_io isim_peek isim_next isim_eat isim_error isim_peek_error
                                 isim_error_consume isimS_take_run isim_symbol_rd isim_r6rs_str_rd)|].
      intros v. apply psim_bind; [apply (psim_expect_end irel isim_peek isim_next isim_eat isim_peek_error)|].
      intros _. apply psim_pret. }
    exact (proj1 (Hs _ _ (init_related inp1 inp2 H))).
  Qed.
End Invisible.
