(* C08, the whole-input frame: two option sets that differ only in options the
   input does not exercise read the whole input identically. "Does not
   exercise" is a condition on the bytes of the input (a sound
   over-approximation): an option whose tokens begin with a given byte is not
   exercised when that byte does not occur ('#' for octothorpe keywords and
   Racket symbols, a digit for leading-digit symbols, the double quote for the string
   syntax, '[' for brackets, ':' for both colon keyword spellings, '?' for the
   character syntax), and the nil / t treatments are not exercised when the
   input has no 'n' / no 't'. The invariant is that the bytes still to be read
   all occur in the whole input W, and that a scanned symbol consists of bytes
   of W (plus the prefix it was started with). *)
From Coq Require Import SpecFloat Lia ZifyBool ZifyNat ZifyN.
Require Import Base Value Float PrintOptions ParseOptions Utf8 Reader Scan Num NumberOps Parser.
Require Import ListProofs RelFramework SpanProofs FuelProofs FuelMono.

Section Frame.
  Variable W : bytes.
  Definition sub (r : reader) : Prop := forall b, In (EByte b) (rinput r) -> In b W.

  Definition Rsub (r : reader) (x : option perr) (r' : reader) : Prop := sub r -> sub r'.
  Lemma Rsub_ret r : Rsub r None r.  Proof. intros H; exact H. Qed.
  Lemma Rsub_seq r r1 x r2 : Rsub r None r1 -> Rsub r1 x r2 -> Rsub r x r2.
  Proof. unfold Rsub. auto. Qed.
  Lemma Rsub_fuel r : Rsub r (Some EFuel) r.  Proof. intros H; exact H. Qed.
  Lemma Rsub_rec1 r e r1 x r2 : Rsub r (Some e) r1 -> Rsub r1 x r2 -> Rsub r (Some e) r2.
  Proof. unfold Rsub. auto. Qed.
  Lemma Rsub_rec2 r e r1 e' r2 : Rsub r (Some e) r1 -> Rsub r1 (Some e') r2 -> Rsub r (Some e') r2.
  Proof. unfold Rsub. auto. Qed.

  Lemma sub_incl r r' : incl (rinput r') (rinput r) -> sub r -> sub r'.
  Proof. intros Hi Hs b Hb. apply Hs. apply Hi. exact Hb. Qed.
  Lemma skip_intr_incl l : incl (skip_intr l) l.
  Proof. induction l as [|[b| |e] l IH]; cbn [skip_intr]; intros x Hx; try exact Hx. right. apply IH. exact Hx. Qed.

  Lemma sub_peek : sat Rsub peek.
  Proof.
    intros r. unfold peek, r_peek, R, Rsub. destruct (rpending r).
    - destruct (rinput r) as [|[b| |e] l]; cbn [fst snd erase]; auto.
    - pose proof (skip_intr_incl (rinput r)) as Hi.
      destruct (skip_intr (rinput r)) as [|[b| |e] l] eqn:E; cbn [fst snd erase]; intros Hs; try exact Hs.
      + intros b Hb. destruct Hb.
      + apply (sub_incl r); [cbn [rinput]; exact Hi|exact Hs].
      + apply (sub_incl r); [cbn [rinput]; eapply incl_tran; [apply incl_tl, incl_refl|exact Hi]|exact Hs].
  Qed.
  Lemma sub_next : sat Rsub next_char.
  Proof.
    intros r. unfold next_char, r_next, R, Rsub.
    assert (Hi : incl (if rpending r then rinput r else skip_intr (rinput r)) (rinput r)).
    { destruct (rpending r); [intros x Hx; exact Hx|apply skip_intr_incl]. }
    destruct (if rpending r then rinput r else skip_intr (rinput r)) as [|[b| |e] l]; cbn [fst snd erase]; intros Hs; try exact Hs.
    - intros b Hb. destruct Hb.
    - apply (sub_incl r); [rewrite consume_input; eapply incl_tran; [apply incl_tl, incl_refl|exact Hi]|exact Hs].
    - apply (sub_incl r); [cbn [rinput]; eapply incl_tran; [apply incl_tl, incl_refl|exact Hi]|exact Hs].
  Qed.
  Lemma discard_sub r : sub r -> sub (r_discard r).
  Proof.
    intros Hs. unfold r_discard. destruct (rk r); try destruct (rpending r); try exact Hs;
      destruct (rinput r) as [|[b| |e] l] eqn:E; try exact Hs;
      (apply (sub_incl r); [rewrite consume_input, E; apply incl_tl, incl_refl|exact Hs]).
  Qed.
  Lemma sub_eat : sat Rsub eat_char.
  Proof. intros r. unfold eat_char, R, Rsub. cbn [fst snd]. apply discard_sub. Qed.
  Lemma sub_error A c : sat Rsub (@error A c).
  Proof. intros r. unfold error, R, Rsub. destruct (r_position r). cbn [fst snd]. auto. Qed.
  Lemma sub_peek_error A c : sat Rsub (@peek_error A c).
  Proof. intros r. unfold peek_error, R, Rsub. destruct (r_peek_position r). cbn [fst snd]. auto. Qed.
  Lemma sub_error_consume A c : sat Rsub (@error_consume A c).
  Proof. intros r. unfold error_consume, peek_error, R, Rsub. destruct (r_peek_position r). cbn [fst snd]. apply discard_sub. Qed.
  Lemma span_plain_incl l : forall acc, incl (snd (span_plain l acc)) l.
  Proof.
    induction l as [|[b| |e] l IH]; intros acc; cbn [span_plain snd]; try (intros x Hx; exact Hx).
    destruct ((b =? 92) || (b =? 34)); cbn [snd]; [intros x Hx; exact Hx|]. eapply incl_tran; [apply IH|apply incl_tl, incl_refl].
  Qed.
  Lemma span_symbol_incl l : forall acc, incl (snd (span_symbol l acc)) l.
  Proof.
    induction l as [|[b| |e] l IH]; intros acc; cbn [span_symbol snd]; try (intros x Hx; exact Hx).
    destruct (is_symbol_terminator b); cbn [snd]; [intros x Hx; exact Hx|]. eapply incl_tran; [apply IH|apply incl_tl, incl_refl].
  Qed.
  Lemma sub_take_run : sat Rsub take_run.
  Proof.
    intros r. unfold take_run, R, Rsub. pose proof (span_plain_incl (rinput r) []) as Hi.
    destruct (span_plain (rinput r) []) as [run rest]. cbn [snd] in Hi.
    destruct rest as [|[b| |e] rest']; cbn [fst snd]; intros Hs.
    - apply (sub_incl r); [rewrite advance_over_input; exact Hi|exact Hs].
    - apply (sub_incl r); [rewrite consume_input; eapply incl_tran; [apply incl_tl, incl_refl|exact Hi]|exact Hs].
    - apply (sub_incl r); [rewrite advance_over_input; exact Hi|exact Hs].
    - apply (sub_incl r); [rewrite advance_over_input; exact Hi|exact Hs].
  Qed.
  Lemma sub_take_symbol : sat Rsub take_symbol_run.
  Proof.
    intros r. unfold take_symbol_run, R, Rsub. pose proof (span_symbol_incl (rinput r) []) as Hi.
    destruct (span_symbol (rinput r) []) as [run rest]. cbn [fst snd] in *. intros Hs.
    apply (sub_incl r); [rewrite advance_over_input; exact Hi|exact Hs].
  Qed.

  Definition from_w (scratch name : bytes) : Prop := forall b, In b name -> In b scratch \/ In b W.
  Lemma scan_io_from_w fuel : forall scratch r, sub r ->
    match scan_symbol_io fuel scratch r with (Ok name, _) => from_w scratch name | _ => True end.
  Proof.
    induction fuel as [|f IH]; intros scratch r Hs; [exact I|]. cbn [scan_symbol_io]. unfold bind at 1.
    pose proof (sub_peek r Hs) as Hs1. unfold R, Rsub, peek in *.
    pose proof (FuelProofs.peek_cases r) as Hc. destruct (r_peek r) as [[[ch|]|e] r1]; cbn [fst snd] in *; [| |exact I].
    - destruct Hc as [[Hp [l Hl]] _]. destruct (is_symbol_terminator ch).
      + destruct (beq_bytes scratch [46]); [unfold error; destruct (r_position r1); exact I|]. unfold ret. intros b Hb. left. exact Hb.
      + unfold bind, eat_char. cbn [fst snd]. specialize (IH (scratch ++ [ch]) (r_discard r1) (discard_sub r1 Hs1)).
        destruct (scan_symbol_io f (scratch ++ [ch]) (r_discard r1)) as [[name|e] r2]; [|exact I].
        intros b Hb. destruct (IH b Hb) as [H|H]; [|right; exact H].
        apply in_app_or in H. destruct H as [H|H]; [left; exact H|]. right. destruct H as [<-|[]]. apply Hs1. rewrite Hl. left. reflexivity.
    - destruct (is_truncated_symbol scratch); [unfold error; destruct (r_position r1); exact I|].
      destruct (beq_bytes scratch [46]); [unfold error; destruct (r_position r1); exact I|]. unfold ret. intros b Hb. left. exact Hb.
  Qed.
  Lemma span_symbol_from l : forall acc b, In b (fst (span_symbol l acc)) -> In b acc \/ In (EByte b) l.
  Proof.
    induction l as [|[c| |e] l IH]; intros acc b; cbn [span_symbol fst]; try (intros H; left; exact H).
    destruct (is_symbol_terminator c); cbn [fst]; [intros H; left; exact H|].
    intros H. destruct (IH _ _ H) as [H1|H1]; [|right; right; exact H1].
    apply in_app_or in H1. destruct H1 as [H1|[<-|[]]]; [left; exact H1|right; left; reflexivity].
  Qed.
  Lemma scan_slice_from_w scratch r : sub r ->
    match scan_symbol_slice scratch r with (Ok name, _) => from_w scratch name | _ => True end.
  Proof.
    intros Hs. unfold scan_symbol_slice. pose proof (span_symbol_from (rinput r) []) as Hf.
    destruct (span_symbol (rinput r) []) as [scanned rest]. cbn [fst] in Hf. cbv zeta.
    destruct (_ && _); [unfold error; destruct (r_position _); exact I|].
    destruct (beq_bytes _ _); [unfold error; destruct (r_position _); exact I|]. unfold ret.
    intros b Hb. apply in_app_or in Hb. destruct Hb as [Hb|Hb]; [left; exact Hb|]. destruct (Hf b Hb) as [[]|H]. right. apply Hs. exact H.
  Qed.
  Lemma symbol_rd_from_w fuel scratch r : sub r ->
    match parse_symbol_rd fuel scratch r with (Ok name, _) => from_w scratch name | _ => True end.
  Proof.
    intros Hs. unfold parse_symbol_rd. destruct (rk r); unfold bind.
    - pose proof (scan_slice_from_w scratch r Hs) as H. destruct (scan_symbol_slice scratch r) as [[x|e] r1]; [|exact I].
      pose proof (FuelMono.finish_str_same x r1) as Hf. destruct (finish_str x r1) as [[y|e] r2]; [|exact I]. destruct (Hf y r2 eq_refl) as [-> _]. exact H.
    - pose proof (scan_slice_from_w scratch r Hs) as H. destruct (scan_symbol_slice scratch r) as [[x|e] r1]; [|exact I].
      pose proof (FuelMono.finish_str_same x r1) as Hf. destruct (finish_str x r1) as [[y|e] r2]; [|exact I]. destruct (Hf y r2 eq_refl) as [-> _]. exact H.
    - pose proof (scan_io_from_w fuel scratch r Hs) as H. destruct (scan_symbol_io fuel scratch r) as [[x|e] r1]; [|exact I].
      pose proof (FuelMono.as_str_same x r1) as Hf. destruct (Scan.as_str x r1) as [[y|e] r2]; [|exact I]. destruct (Hf y r2 eq_refl) as [-> _]. exact H.
  Qed.
  Ltac sub_prims :=
    first [ exact Rsub_ret | exact Rsub_seq | exact Rsub_fuel | exact sub_peek | exact sub_next | exact sub_eat
          | exact sub_error | exact sub_peek_error | exact sub_error_consume | exact sub_take_run | exact sub_take_symbol
          | exact Rsub_rec1 | exact Rsub_rec2 ].

  Variable alpha : N -> bool.
  Variable fast : bool.
  Variable std_parse : N -> Z -> f64.

  Lemma sat_sub {A} (m : M A) r : sat Rsub m -> sub r -> sub (snd (m r)).
  Proof. intros H. apply (H r). Qed.
  Lemma subm_ws fuel : sat Rsub (parse_whitespace fuel).
  Proof. apply sat_parse_whitespace; sub_prims. Qed.
  Lemma subm_token ro fuel b : sat Rsub (parse_token ro alpha fast std_parse fuel b).
  Proof. apply sat_parse_token; sub_prims. Qed.
  Lemma subm_end_seq fuel close : sat Rsub (end_seq fuel close).
  Proof. apply sat_end_seq; sub_prims. Qed.
  Lemma subm_byte_list fuel close : sat Rsub (parse_byte_list fast std_parse fuel close).
  Proof. apply sat_parse_byte_list; sub_prims. Qed.
  Lemma subm_symbol_suffix fuel p : sat Rsub (parse_symbol_suffix fuel p).
  Proof. apply sat_parse_symbol_suffix; sub_prims. Qed.
  Lemma subm_peek_or_null : sat Rsub peek_or_null.
  Proof. apply sat_peek_or_null; sub_prims. Qed.
  Lemma subm_decode c : sat Rsub (decode_utf8_sequence_b c).
  Proof. apply sat_decode_utf8_sequence_b; sub_prims. Qed.

  Definition sub_values ro fuel :=
    psat_values Rsub Rsub_ret Rsub_seq Rsub_fuel sub_peek sub_next sub_eat sub_error sub_peek_error sub_error_consume
      sub_take_run sub_take_symbol fast std_parse ro alpha Rsub_rec1 Rsub_rec2 fuel.
  Definition sub_datums ro fuel :=
    psat_datums Rsub Rsub_ret Rsub_seq Rsub_fuel sub_peek sub_next sub_eat sub_error sub_peek_error sub_error_consume
      sub_take_run sub_take_symbol fast std_parse ro alpha Rsub_rec1 Rsub_rec2 fuel.

  Variables ro1 ro2 : parse_options.
  Hypothesis F35 : In 35 W -> ro_kw_octo ro1 = ro_kw_octo ro2 /\ ro_racket ro1 = ro_racket ro2.
  Hypothesis Fdig : forall b, In b W -> is_digit b = true -> ro_digit ro1 = ro_digit ro2.
  Hypothesis F34 : In 34 W -> ro_string ro1 = ro_string ro2.
  Hypothesis F91 : In 91 W -> ro_brackets ro1 = ro_brackets ro2.
  Hypothesis F58 : In 58 W -> ro_kw_prefix ro1 = ro_kw_prefix ro2 /\ ro_kw_postfix ro1 = ro_kw_postfix ro2.
  Hypothesis F63 : In 63 W -> ro_char ro1 = ro_char ro2.
  Hypothesis F110 : In 110 W -> ro_nil ro1 = ro_nil ro2.
  Hypothesis F116 : In 116 W -> ro_t ro1 = ro_t ro2.

  Lemma ends_with_colon_in name : ends_with_colon name = true -> In 58 name.
  Proof.
    unfold ends_with_colon. destruct (rev name) as [|c l] eqn:E; [discriminate|]. destruct (c =? 58) eqn:Ec.
    - intros _. apply N.eqb_eq in Ec. subst c. apply in_rev. rewrite E. left. reflexivity.
    - destruct c; try discriminate. destruct p; try discriminate. repeat (destruct p; try discriminate).
  Qed.

  Lemma symbol_token_frame' scratch name : from_w scratch name ->
    (forall b, In b scratch -> In b W \/ (b <> 58 /\ b <> 110 /\ b <> 116)) ->
    symbol_token ro1 name = symbol_token ro2 name.
  Proof.
    intros Hf Hs.
    assert (Hin : forall b, (b = 58 \/ b = 110 \/ b = 116) -> In b name -> In b W).
    { intros b Hb Hn. destruct (Hf b Hn) as [H|H]; [|exact H]. destruct (Hs b H) as [H'|(A & B & C)]; [exact H'|]. destruct Hb as [->|[->| ->]]; contradiction. }
    unfold symbol_token.
    assert (E1 : ro_kw_postfix ro1 && (1 <? length name)%nat && ends_with_colon name = ro_kw_postfix ro2 && (1 <? length name)%nat && ends_with_colon name).
    { destruct (ends_with_colon name) eqn:Ec; [|rewrite !Bool.andb_false_r; reflexivity].
      destruct (F58 (Hin 58 (or_introl eq_refl) (ends_with_colon_in name Ec))) as [_ ->]. reflexivity. }
    rewrite E1. destruct (ro_kw_postfix ro2 && (1 <? length name)%nat && ends_with_colon name); [reflexivity|].
    destruct (beq_bytes name (s2b "nil")) eqn:En.
    { apply beq_bytes_eq in En. subst name. rewrite (F110 (Hin 110 (or_intror (or_introl eq_refl)) ltac:(left; reflexivity))).
      change (beq_bytes (s2b "nil") (s2b "t")) with false. rewrite !Bool.andb_false_r. reflexivity. }
    rewrite !Bool.andb_false_r.
    destruct (beq_bytes name (s2b "t")) eqn:Et.
    { apply beq_bytes_eq in Et. subst name. rewrite (F116 (Hin 116 (or_intror (or_intror eq_refl)) ltac:(left; reflexivity))). reflexivity. }
    rewrite !Bool.andb_false_r. reflexivity.
  Qed.
  Lemma symbol_value_frame' scratch name : from_w scratch name ->
    (forall b, In b scratch -> In b W \/ (b <> 58 /\ b <> 110 /\ b <> 116)) -> symbol_value ro1 name = symbol_value ro2 name.
  Proof. intros H1 H2. unfold symbol_value. rewrite (symbol_token_frame' scratch name H1 H2). reflexivity. Qed.
  Lemma take_bytes_from k : forall acc r, sub r -> (forall x, In x acc -> In x W) ->
    match take_bytes k acc r with (Ok bs, _) => forall x, In x bs -> In x W | _ => True end.
  Proof.
    induction k as [|k IH]; intros acc r Hs Ha; cbn [take_bytes]; [unfold ret; exact Ha|].
    unfold bind, next_char. pose proof (sub_next r Hs) as Hs1. unfold R, Rsub, next_char in Hs1.
    assert (Hhd : match r_next r with (Ok (Some c), _) => In c W | _ => True end).
    { unfold r_next. pose proof (skip_intr_incl (rinput r)) as Hi.
      destruct (rpending r).
      - destruct (rinput r) as [|[c| |e] l] eqn:E; try exact I. apply Hs. rewrite E. left. reflexivity.
      - destruct (skip_intr (rinput r)) as [|[c| |e] l] eqn:E; try exact I. apply Hs. apply Hi. left. reflexivity. }
    destruct (r_next r) as [[[c|]|e] r1]; cbn [fst snd] in *; try exact I; try (unfold error; destruct (r_position r1); exact I).
    apply IH; [exact Hs1|]. intros x Hx. apply in_app_or in Hx. destruct Hx as [Hx|[<-|[]]]; [apply Ha; exact Hx|exact Hhd].
  Qed.

  Lemma decode_from_w b r p r' : sub r -> In b W -> decode_utf8_sequence_b b r = (Ok p, r') -> forall x, In x (fst p) -> In x W.
  Proof.
    intros Hs Hb. unfold decode_utf8_sequence_b.
    destruct (in_range 192 223 b || in_range 224 247 b); [|unfold error; destruct (r_position r); intros E; discriminate E].
    unfold bind.
    set (k := if in_range 192 223 b then 1%nat else N.to_nat ((b - 192) / 16)).
    pose proof (take_bytes_from k [b] r Hs ltac:(intros x [<-|[]]; exact Hb)) as Ht.
    destruct (take_bytes k [b] r) as [[bs|e] r3]; [|intros E; discriminate E].
    destruct (utf8_valid bs); [unfold ret; intros E; inversion E; subst; exact Ht|unfold error; destruct (r_position r3); intros E; discriminate E].
  Qed.

  Local Notation ptok ro := (parse_token ro alpha fast std_parse).

  Lemma at_byte_in b r : sub r -> at_byte b r -> In b W.
  Proof. intros Hs [_ [l Hl]]. apply Hs. rewrite Hl. left. reflexivity. Qed.

  Lemma bind_cong {A B} (m : M A) (f1 f2 : A -> M B) r :
    (forall a r', m r = (Ok a, r') -> f1 a r' = f2 a r') -> bind m f1 r = bind m f2 r.
  Proof. intros H. unfold bind. destruct (m r) as [[a|e] r']; [apply H; reflexivity|reflexivity]. Qed.

  Lemma symbol_arm fuel scratch r : sub r ->
    (forall b, In b scratch -> In b W \/ (b <> 58 /\ b <> 110 /\ b <> 116)) ->
    (name <- parse_symbol_rd fuel scratch ;; ret (symbol_token ro1 name)) r =
    (name <- parse_symbol_rd fuel scratch ;; ret (symbol_token ro2 name)) r.
  Proof.
    intros Hs Hsc. apply bind_cong. intros name r' E. pose proof (symbol_rd_from_w fuel scratch r Hs) as H. rewrite E in H.
    unfold ret. rewrite (symbol_token_frame' scratch name H Hsc). reflexivity.
  Qed.

  Theorem token_frame fuel b r : sub r -> at_byte b r -> ptok ro1 fuel b r = ptok ro2 fuel b r.
  Proof.
    intros Hs Hb. pose proof (at_byte_in b r Hs Hb) as HbW. unfold Parser.parse_token.
    destruct (b =? 35) eqn:E35.
    { apply N.eqb_eq in E35. subst b. destruct (F35 HbW) as [A B]. rewrite A, B. reflexivity. }
    destruct ((b =? 45) || (b =? 43)) eqn:Esign.
    { apply bind_cong. intros u r1 E1. unfold eat_char in E1. inversion E1; subst r1. pose proof (discard_sub r Hs) as Hs1.
      apply bind_cong. intros nx r2 E2. pose proof (sat_sub peek_or_null (r_discard r) subm_peek_or_null Hs1) as Hs2. rewrite E2 in Hs2. cbn [snd] in Hs2.
      destruct ((nx =? 0) || is_delimiter nx || is_sign_subsequent nx || (nx =? 46) || (127 <? nx)); [|reflexivity].
      unfold parse_symbol_suffix. apply (symbol_arm fuel [b] r2 Hs2). intros x [<-|[]]. left. exact HbW. }
    destruct (is_digit b) eqn:Ed.
    { rewrite (Fdig b HbW Ed). destruct (ro_digit ro2); [|reflexivity].
      apply bind_cong. intros name r' E. pose proof (symbol_rd_from_w fuel [] r Hs) as H. unfold parse_symbol in E. rewrite E in H.
      destruct (number_of_symbol fast std_parse fuel name); [reflexivity|]. unfold ret.
      rewrite (symbol_token_frame' [] name H ltac:(intros x [])). reflexivity. }
    destruct (b =? 34) eqn:E34.
    { apply N.eqb_eq in E34. subst b. rewrite (F34 HbW). reflexivity. }
    destruct (b =? 40); [reflexivity|].
    destruct (b =? 91) eqn:E91.
    { apply N.eqb_eq in E91. subst b. rewrite (F91 HbW). reflexivity. }
    destruct (b =? 58) eqn:E58.
    { apply N.eqb_eq in E58. subst b. destruct (F58 HbW) as [A _]. rewrite A. reflexivity. }
    destruct (is_ascii_alpha b).
    { unfold parse_symbol. apply (symbol_arm fuel [] r Hs). intros x []. }
    assert (E63 : (b =? 63) && match ro_char ro1 with ChrElisp => true | ChrR6RS => false end =
                  (b =? 63) && match ro_char ro2 with ChrElisp => true | ChrR6RS => false end).
    { destruct (b =? 63) eqn:E; [|reflexivity]. apply N.eqb_eq in E. subst b. rewrite (F63 HbW). reflexivity. }
    rewrite E63. destruct ((b =? 63) && match ro_char ro2 with ChrElisp => true | ChrR6RS => false end); [reflexivity|].
    destruct (b =? 39); [reflexivity|]. destruct (b =? 96); [reflexivity|]. destruct (b =? 44); [reflexivity|].
    destruct (127 <? b).
    { apply bind_cong. intros u r1 E1. unfold eat_char in E1. inversion E1; subst r1. pose proof (discard_sub r Hs) as Hs1.
      apply bind_cong. intros p r2 E2.
      pose proof (sat_sub (decode_utf8_sequence_b b) (r_discard r) (subm_decode b) Hs1) as Hs2. rewrite E2 in Hs2. cbn [snd] in Hs2.
      pose proof (decode_from_w b (r_discard r) p r2 Hs1 HbW E2) as Hp.
      destruct (negb (alpha (snd p))); [reflexivity|].
      unfold parse_symbol_suffix. apply (symbol_arm fuel (fst p) r2 Hs2). intros x Hx. left. apply Hp. exact Hx. }
    destruct (memb b SYMBOL_EXTENDED).
    { unfold parse_symbol. apply (symbol_arm fuel [] r Hs). intros x []. }
    reflexivity.
  Qed.

  Definition pfr {A} (m1 m2 : PM A) : Prop := forall s, sub (rd s) -> m1 s = m2 s.
  Definition pfrat {A} (b : N) (m1 m2 : PM A) : Prop := forall s, sub (rd s) -> at_byte b (rd s) -> m1 s = m2 s.
  Definition psubm {A} (m : PM A) : Prop := forall s, sub (rd s) -> sub (rd (snd (m s))).

  Lemma pfr_refl {A} (m : PM A) : pfr m m.
  Proof. intros s _. reflexivity. Qed.
  Lemma pfrat_weaken {A} b (m1 m2 : PM A) : pfr m1 m2 -> pfrat b m1 m2.
  Proof. intros H s Hs _. apply H. exact Hs. Qed.
  Lemma pfr_bind {A B} (m1 m2 : PM A) (f1 f2 : A -> PM B) :
    psubm m1 -> pfr m1 m2 -> (forall a, pfr (f1 a) (f2 a)) -> pfr (pbind m1 f1) (pbind m2 f2).
  Proof.
    intros Hm He Hf s Hs. rewrite !pbind_unfold, <- (He s Hs). specialize (Hm s Hs).
    destruct (m1 s) as [[a|e] s1]; cbn [snd] in *; [apply Hf; exact Hm|reflexivity].
  Qed.
  Lemma psubm_same {A} (m : PM A) : (forall s, rd (snd (m s)) = rd s) -> psubm m.
  Proof. intros H s Hs. rewrite H. exact Hs. Qed.
  Lemma psubm_liftR {A} (m : M A) : sat Rsub m -> psubm (liftR m).
  Proof. intros H s Hs. unfold liftR. pose proof (H (rd s) Hs) as H1. destruct (m (rd s)) as [[a|e] r']; exact H1. Qed.
  Lemma psubm_psat {A} (m : PM A) : psat Rsub m -> psubm m.
  Proof. intros H s Hs. apply (H s Hs). Qed.
  Lemma psubm_attempt {A} (m : PM A) : psubm m -> psubm (attempt m).
  Proof. intros H s Hs. specialize (H s Hs). rewrite attempt_unfold. destruct (m s) as [[a|[e|k]] s1]; cbn [snd] in *; try exact H. destruct e; exact H. Qed.
  Lemma pfr_attempt {A} (m1 m2 : PM A) : pfr m1 m2 -> pfr (attempt m1) (attempt m2).
  Proof. intros H s Hs. rewrite !attempt_unfold, (H s Hs). reflexivity. Qed.
  Lemma psubm_enter : psubm enter_nesting.
  Proof. apply psubm_psat. apply psat_enter_nesting; sub_prims. Qed.
  Lemma psubm_inc : psubm inc_depth.
  Proof. apply psubm_psat. apply psat_inc_depth; sub_prims. Qed.
  Lemma psubm_both {A} (r : res A) (e : res unit) : psubm (both r e).
  Proof. apply psubm_same. intros s. destruct r; destruct e; reflexivity. Qed.
  Lemma psubm_lift {A} (r : res A) : psubm (lift r).
  Proof. apply psubm_same. intros s. destruct r; reflexivity. Qed.

  Lemma pfr_bind_ws {A} fuel (k1 k2 : option N -> PM A) :
    pfr (k1 None) (k2 None) -> (forall b, pfrat b (k1 (Some b)) (k2 (Some b))) ->
    pfr (pbind (liftR (parse_whitespace fuel)) k1) (pbind (liftR (parse_whitespace fuel)) k2).
  Proof.
    intros Hn Hsome s Hs. rewrite !pbind_unfold. unfold liftR.
    pose proof (subm_ws fuel (rd s) Hs) as Hs1. pose proof (ws_at_byte fuel (rd s)) as Hb.
    destruct (parse_whitespace fuel (rd s)) as [[[b|]|e] r1]; cbn [fst snd] in *; [| |reflexivity].
    - apply Hsome; [exact Hs1|exact Hb].
    - apply Hn. exact Hs1.
  Qed.
  Lemma pfrat_token {A} fuel b (k1 k2 : token -> PM A) : (forall tok, pfr (k1 tok) (k2 tok)) ->
    pfrat b (pbind (liftR (ptok ro1 fuel b)) k1) (pbind (liftR (ptok ro2 fuel b)) k2).
  Proof.
    intros Hk s Hs Hb. rewrite !pbind_unfold. unfold liftR. rewrite <- (token_frame fuel b (rd s) Hs Hb).
    pose proof (subm_token ro1 fuel b (rd s) Hs) as Hs1.
    destruct (ptok ro1 fuel b (rd s)) as [[tok|e] r1]; [|reflexivity]. apply Hk. exact Hs1.
  Qed.
  Lemma pfrat_position {A} b (k1 k2 : N * N -> PM A) :
    (forall p, pfrat b (k1 p) (k2 p)) -> pfrat b (pbind (liftR position) k1) (pbind (liftR position) k2).
  Proof.
    intros Hk s Hs Hb. rewrite !pbind_unfold. unfold liftR, position. destruct s as [r d]. cbn [rd depth] in *.
    apply (Hk _ {| rd := r; depth := d |}); assumption.
  Qed.
  Lemma pfr_nest_seq {A B} (body1 body2 : PM A) (endm : M unit) (k1 k2 : A -> PM B) :
    psubm body1 -> pfr body1 body2 -> sat Rsub endm -> (forall a, pfr (k1 a) (k2 a)) ->
    pfr (pbind (attempt body1) (fun r => pbind inc_depth (fun _ => pbind (attempt (liftR endm)) (fun e => pbind (both r e) k1))))
        (pbind (attempt body2) (fun r => pbind inc_depth (fun _ => pbind (attempt (liftR endm)) (fun e => pbind (both r e) k2)))).
  Proof.
    intros Hm He Hend Hk. apply pfr_bind; [apply psubm_attempt; exact Hm|apply pfr_attempt; exact He|]. intros r.
    apply pfr_bind; [apply psubm_inc|apply pfr_refl|]. intros _.
    apply pfr_bind; [apply psubm_attempt; apply psubm_liftR; exact Hend|apply pfr_refl|]. intros e.
    apply pfr_bind; [apply psubm_both|apply pfr_refl|exact Hk].
  Qed.
  Lemma pfr_nest_quote {A B} (body1 body2 : PM A) (k1 k2 : A -> PM B) :
    psubm body1 -> pfr body1 body2 -> (forall a, pfr (k1 a) (k2 a)) ->
    pfr (pbind (attempt body1) (fun r => pbind inc_depth (fun _ => pbind (lift r) k1)))
        (pbind (attempt body2) (fun r => pbind inc_depth (fun _ => pbind (lift r) k2))).
  Proof.
    intros Hm He Hk. apply pfr_bind; [apply psubm_attempt; exact Hm|apply pfr_attempt; exact He|]. intros r.
    apply pfr_bind; [apply psubm_inc|apply pfr_refl|]. intros _.
    apply pfr_bind; [apply psubm_lift|apply pfr_refl|exact Hk].
  Qed.

  Lemma pfr_dot_symbol {A} fuel (k1 k2 : value -> PM A) : (forall v, pfr (k1 v) (k2 v)) ->
    pfr (pbind (liftR (parse_symbol_suffix fuel [46])) (fun name => k1 (symbol_value ro1 name)))
        (pbind (liftR (parse_symbol_suffix fuel [46])) (fun name => k2 (symbol_value ro2 name))).
  Proof.
    intros Hk s Hs. rewrite !pbind_unfold. unfold liftR.
    pose proof (subm_symbol_suffix fuel [46] (rd s) Hs) as Hs1. pose proof (symbol_rd_from_w fuel [46] (rd s) Hs) as Hf.
    unfold parse_symbol_suffix in *. destruct (parse_symbol_rd fuel [46] (rd s)) as [[name|e] r1]; [|reflexivity].
    rewrite (symbol_value_frame' [46] name Hf ltac:(intros x [<-|[]]; right; repeat split; discriminate)). apply Hk. exact Hs1.
  Qed.

  Local Notation nv ro := (next_value ro alpha fast std_parse).
  Local Notation pl ro := (parse_list ro alpha fast std_parse).
  Local Notation pv ro := (parse_vector ro alpha fast std_parse).

  Theorem frame_values fuel :
    pfr (nv ro1 fuel) (nv ro2 fuel) /\ (forall t acc, pfr (pl ro1 fuel t acc) (pl ro2 fuel t acc)) /\
    (forall t acc, pfr (pv ro1 fuel t acc) (pv ro2 fuel t acc)).
  Proof.
    induction fuel as [|f (IHv & IHl & IHvec)]; [repeat split; intros; apply pfr_refl|].
    destruct (sub_values ro1 f) as (Sv & Sl & Svec).
    split; [|split].
    - cbn [Parser.next_value]. fold (nv ro1) (pl ro1) (pv ro1) (nv ro2) (pl ro2) (pv ro2). apply pfr_bind_ws; [apply pfr_refl|]. intros b. apply pfrat_token. intros tok.
      destruct tok; [apply pfr_refl.. | | | | apply pfr_refl].
      + apply pfr_bind; [apply psubm_enter|apply pfr_refl|intros _].
        apply pfr_nest_seq; [apply psubm_psat; apply Sl|apply IHl|apply subm_end_seq|intros; apply pfr_refl].
      + apply pfr_bind; [apply psubm_enter|apply pfr_refl|intros _].
        apply pfr_nest_quote; [apply psubm_psat; exact Sv|exact IHv|intros; apply pfr_refl].
      + apply pfr_bind; [apply psubm_enter|apply pfr_refl|intros _].
        apply pfr_nest_seq; [apply psubm_psat; apply Svec|apply IHvec|apply subm_end_seq|intros; apply pfr_refl].
    - intros t acc. cbn [Parser.parse_list]. fold (nv ro1) (pl ro1) (pv ro1) (nv ro2) (pl ro2) (pv ro2). apply pfr_bind_ws; [apply pfr_refl|]. intros c. apply pfrat_weaken.
      destruct (is_closer c); [apply pfr_refl|].
      destruct (c =? 46).
      + apply pfr_bind; [apply psubm_liftR; apply sat_bind; [sub_prims|sub_prims|intros; sub_prims]|apply pfr_refl|]. intros nx.
        destruct (lone_dot nx).
        * destruct acc as [|a0 acc']; [apply pfr_refl|].
          apply pfr_bind; [apply psubm_psat; exact Sv|exact IHv|intros; apply pfr_refl].
        * apply (pfr_dot_symbol f (fun v => pl ro1 f t (acc ++ [v])) (fun v => pl ro2 f t (acc ++ [v]))). intros v. apply IHl.
      + apply pfr_bind; [apply psubm_psat; exact Sv|exact IHv|]. intros ov. destruct ov; [apply IHl|apply pfr_refl].
    - intros t acc. cbn [Parser.parse_vector]. fold (nv ro1) (pl ro1) (pv ro1) (nv ro2) (pl ro2) (pv ro2). apply pfr_bind_ws; [apply pfr_refl|]. intros c. apply pfrat_weaken.
      destruct (is_closer c); [apply pfr_refl|].
      apply pfr_bind; [apply psubm_psat; exact Sv|exact IHv|]. intros ov. destruct ov; [apply IHvec|apply pfr_refl].
  Qed.

  Lemma init_sub k (s : bytes) : s = W -> sub (rd (init_state k (bytes_events s))).
  Proof.
    intros ->. unfold init_state, mk_reader, sub. cbn [rd rinput]. intros b Hb. unfold bytes_events in Hb.
    apply in_map_iff in Hb. destruct Hb as (x & E & Hx). inversion E. subst. exact Hx.
  Qed.

  Theorem from_trait_frame k : from_trait ro1 alpha fast std_parse k (bytes_events W) = from_trait ro2 alpha fast std_parse k (bytes_events W).
  Proof.
    unfold from_trait. cbv zeta. generalize (fuel_for (bytes_events W)). intros fuel. apply (f_equal fst).
    apply pfr_bind; [| |intros v; apply pfr_refl|apply init_sub; reflexivity]; unfold expect_value.
    - apply psubm_psat. apply psat_expect_value; sub_prims.
    - apply pfr_bind; [apply psubm_psat; apply (proj1 (sub_values ro1 _))|apply frame_values|intros; apply pfr_refl].
  Qed.
End Frame.
