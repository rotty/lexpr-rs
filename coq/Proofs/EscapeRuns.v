(* Two runs of the parser side by side of which the second may part company
   with the first in a stated set E of errors that contains the fuel error:
   either it does, or both return the same result, and while that result is a
   value the readers stay related. After an error they need not: the cleanup
   that still runs looks at the input only to produce a second error, which the
   first one hides; there the first run may also end in the fuel error by
   itself. Instances: a str against the byte slice of the same bytes, where the
   slice may reject ill-formed UTF-8 (StrSliceProofs), and a stream that goes on
   against one that fails (IoFailProofs); each declares srel, esc, sx, psx again
   under its own name, unfolding to the definitions here. *)
From Coq Require Import SpecFloat.
Require Import Base Value Float PrintOptions ParseOptions Utf8 Reader Scan Num NumberOps Parser.
Require Import RelFramework.

Definition seq_cont {A B} (endm : M unit) (k : A -> PM B) (r : res A) : PM B :=
  pbind inc_depth (fun _ => pbind (attempt (liftR endm)) (fun e => pbind (both r e) k)).
Definition quote_cont {A B} (k : A -> PM B) (r : res A) : PM B :=
  pbind inc_depth (fun _ => pbind (lift r) k).

(* once the body has failed with x, what comes out is x, the fuel error or the
   depth panic, and which of them depends on the depth only *)
Definition failure_wins {A B} (cont : res A -> PM B) : Prop :=
  forall x s, ((255 <=? depth s) = true /\ fst (cont (Err x) s) = PErr (XPanic 2)) \/
              ((255 <=? depth s) = false /\ depth (snd (cont (Err x) s)) = depth s + 1 /\
               (fst (cont (Err x) s) = PErr (XErr x) \/ fst (cont (Err x) s) = PErr (XErr EFuel))).
Lemma seq_cont_err {A B} (endm : M unit) (k : A -> PM B) : failure_wins (seq_cont endm k).
Proof.
  intros x s. unfold seq_cont, inc_depth. rewrite !pbind_unfold. unfold get_depth. cbn [fst snd].
  destruct (255 <=? depth s) eqn:E.
  - left. split; reflexivity.
  - right. split; [reflexivity|]. cbn [set_depth]. rewrite !pbind_unfold, attempt_unfold. unfold liftR. cbn [rd depth].
    destruct (endm (rd s)) as [[u|e] r']; cbn [fst snd].
    + rewrite pbind_unfold. cbn [both pfail fst snd depth]. split; [reflexivity|left; reflexivity].
    + destruct e as [c l cl|io|]; rewrite ?pbind_unfold; cbn [both pfail fst snd depth]; (split; [reflexivity|]); auto.
Qed.
Lemma quote_cont_err {A B} (k : A -> PM B) : failure_wins (quote_cont k).
Proof.
  intros x s. unfold quote_cont, inc_depth. rewrite !pbind_unfold. unfold get_depth. cbn [fst snd].
  destruct (255 <=? depth s) eqn:E.
  - left. split; reflexivity.
  - right. split; [reflexivity|]. cbn [set_depth]. rewrite !pbind_unfold. cbn [lift pfail fst snd depth].
    split; [reflexivity|left; reflexivity].
Qed.

Section Escape.
  Variable srel : reader -> reader -> Prop.
  Variable E : perr -> Prop.
  Hypothesis E_fuel : E EFuel.

  Definition esc {A} (x : res A) : Prop := match x with Ok _ => False | Err e => E e end.
  Definition sc {A} (m : M A) (r1 r2 : reader) : Prop :=
    esc (fst (m r2)) \/ (fst (m r1) = fst (m r2) /\ srel (snd (m r1)) (snd (m r2))).
  Definition sx {A} (m : M A) : Prop := forall r1 r2, srel r1 r2 -> sc m r1 r2.

  Lemma sx_bind {A B} (m : M A) (f : A -> M B) : sx m -> (forall a, sx (f a)) -> sx (bind m f).
  Proof.
    intros Hm Hf r1 r2 H. unfold sc, bind. destruct (Hm r1 r2 H) as [Ee|[Ee Hr]].
    - left. destruct (m r2) as [[a|e] r2']; cbn [fst esc] in *; [contradiction|exact Ee].
    - destruct (m r1) as [[a1|e1] r1']; destruct (m r2) as [[a2|e2] r2']; cbn [fst snd] in *; try discriminate.
      + inversion Ee; subst a2. apply Hf. exact Hr.
      + right. split; [inversion Ee; reflexivity|exact Hr].
  Qed.
  Lemma sx_ext {A} (m m' : M A) : (forall r, m r = m' r) -> sx m' -> sx m.
  Proof. intros Ee H r1 r2 Hr. unfold sc. rewrite !Ee. apply H. exact Hr. Qed.

  Definition sprel (s1 s2 : pstate) : Prop := srel (rd s1) (rd s2) /\ depth s1 = depth s2.
  (* a panic parts company as well; fuel and panics are excluded for whole parses by C03 *)
  Definition pesc {A} (x : pres A) : Prop :=
    match x with POk _ => False | PErr (XErr e) => E e | PErr (XPanic _) => True end.
  Definition is_pok {A} (x : pres A) : Prop := match x with POk _ => True | _ => False end.
  Definition psc {A} (m : PM A) (s1 s2 : pstate) : Prop :=
    pesc (fst (m s2)) \/ fst (m s1) = PErr (XErr EFuel) \/
    (fst (m s1) = fst (m s2) /\ depth (snd (m s1)) = depth (snd (m s2)) /\
     (is_pok (fst (m s2)) -> srel (rd (snd (m s1))) (rd (snd (m s2))))).
  Definition psx {A} (m : PM A) : Prop := forall s1 s2, sprel s1 s2 -> psc m s1 s2.

  Lemma psx_pret {A} (a : A) : psx (pret a).
  Proof. intros s1 s2 [Hr Hd]. right. right. cbn [pret fst snd]. split; [reflexivity|split; [exact Hd|intros _; exact Hr]]. Qed.
  Lemma psx_panic {A} k : psx (@panic A k).
  Proof. intros s1 s2 H. left. exact I. Qed.
  Lemma psx_fuel {A} : psx (@pfail A (XErr EFuel)).
  Proof. intros s1 s2 H. left. exact E_fuel. Qed.
  Lemma psx_liftR {A} (m : M A) : sx m -> psx (liftR m).
  Proof.
    intros Hm s1 s2 [Hr Hd]. unfold psc, liftR. destruct (Hm (rd s1) (rd s2) Hr) as [Ee|[Ee Hr']].
    - left. destruct (m (rd s2)) as [[a|e] r2']; cbn [fst] in *; [contradiction|exact Ee].
    - right. right. destruct (m (rd s1)) as [[a1|e1] r1']; destruct (m (rd s2)) as [[a2|e2] r2']; cbn [fst snd rd depth] in *; try discriminate;
        inversion Ee; subst; (split; [reflexivity|split; [exact Hd|intros _; exact Hr']]).
  Qed.
  Lemma psx_bind {A B} (m : PM A) (f : A -> PM B) : psx m -> (forall a, psx (f a)) -> psx (pbind m f).
  Proof.
    intros Hm Hf s1 s2 H. unfold psc. rewrite !pbind_unfold. destruct (Hm s1 s2 H) as [Ee|[Ee|(Ee & Hd & Hr)]].
    - left. destruct (m s2) as [[a|[e|k]] s2']; cbn [fst pesc] in *; [contradiction|exact Ee|exact Ee].
    - right. left. destruct (m s1) as [[a|x] s1']; cbn [fst] in *; [discriminate|]. inversion Ee. reflexivity.
    - destruct (m s1) as [[a1|x1] s1']; destruct (m s2) as [[a2|x2] s2']; cbn [fst snd] in *; try discriminate.
      + inversion Ee; subst a2. apply Hf. split; [apply Hr; exact I|exact Hd].
      + inversion Ee; subst x2. right. right. cbn [fst snd is_pok]. split; [reflexivity|split; [exact Hd|intros []]].
  Qed.
  Lemma psx_get_depth : psx get_depth.
  Proof. intros s1 s2 [Hr Hd]. right. right. unfold get_depth. cbn [fst snd]. rewrite Hd. split; [reflexivity|split; [reflexivity|intros _; exact Hr]]. Qed.
  Lemma psx_set_depth d : psx (set_depth d).
  Proof. intros s1 s2 [Hr Hd]. right. right. unfold set_depth. cbn [fst snd rd depth]. split; [reflexivity|split; [reflexivity|intros _; exact Hr]]. Qed.
  Lemma psx_dec_depth : psx dec_depth.
  Proof. unfold dec_depth. apply psx_bind; [apply psx_get_depth|]. intros d. destruct (d =? 0); [apply psx_panic|apply psx_set_depth]. Qed.
  Lemma psx_inc_depth : psx inc_depth.
  Proof. unfold inc_depth. apply psx_bind; [apply psx_get_depth|]. intros d. destruct (255 <=? d); [apply psx_panic|apply psx_set_depth]. Qed.
  Lemma psx_enter_nesting : (forall A c, sx (@peek_error A c)) -> psx enter_nesting.
  Proof.
    intros Hpe. unfold enter_nesting. apply psx_bind; [apply psx_dec_depth|]. intros _. apply psx_bind; [apply psx_get_depth|]. intros d.
    destruct (d =? 0); [|apply psx_pret]. apply psx_bind; [apply psx_inc_depth|]. intros _. apply psx_liftR, Hpe.
  Qed.

  Lemma psx_seq_cont_ok {A B} (endm : M unit) (k : A -> PM B) a : sx endm -> (forall a, psx (k a)) -> psx (seq_cont endm k (Ok a)).
  Proof.
    intros He Hk. unfold seq_cont. apply psx_bind; [apply psx_inc_depth|]. intros _.
    intros s1 s2 H. unfold psc. rewrite !pbind_unfold, !attempt_unfold.
    destruct (psx_liftR endm He s1 s2 H) as [Ee|[Ee|(Ee & Hd & Hr)]].
    - left. destruct (liftR endm s2) as [[u|[e|kk]] s2']; cbn [fst pesc] in Ee; [contradiction| |exact I].
      destruct e as [c l cl|io|]; [| |exact E_fuel]; cbn [fst snd]; rewrite pbind_unfold; exact Ee.
    - right. left. destruct (liftR endm s1) as [[u|x] s1']; cbn [fst] in Ee; [discriminate|]. inversion Ee. reflexivity.
    - destruct (liftR endm s1) as [[u1|x1] s1']; destruct (liftR endm s2) as [[u2|x2] s2']; cbn [fst snd] in *; try discriminate.
      + rewrite !pbind_unfold. cbn [both pret]. apply Hk. split; [apply Hr; exact I|exact Hd].
      + inversion Ee; subst x2. destruct x1 as [e|kk]; [|left; exact I]. destruct e as [c l cl|io|]; [| |left; exact E_fuel];
          cbn [fst snd]; rewrite !pbind_unfold; cbn [both pfail fst snd]; right; right; (split; [reflexivity|split; [exact Hd|intros []]]).
  Qed.
  Lemma psx_quote_cont_ok {A B} (k : A -> PM B) a : (forall a, psx (k a)) -> psx (quote_cont k (Ok a)).
  Proof. intros Hk. unfold quote_cont. apply psx_bind; [apply psx_inc_depth|]. intros _. apply psx_bind; [apply psx_pret|exact Hk]. Qed.

  Lemma psx_nest_gen {A B} (body : PM A) (cont : res A -> PM B) :
    psx body -> (forall a, psx (cont (Ok a))) -> failure_wins cont -> psx (pbind (attempt body) cont).
  Proof.
    intros Hb Hok Herr s1 s2 H. unfold psc. rewrite !pbind_unfold, !attempt_unfold.
    destruct (Hb s1 s2 H) as [Ee|[Ee|(Ee & Hd & Hr)]].
    - left. destruct (body s2) as [[a|[e|kk]] s2']; cbn [fst pesc] in Ee; [contradiction| |exact I].
      assert (Hout : forall s, pesc (fst (cont (Err e) s))).
      { intros s. destruct (Herr e s) as [[_ E2]|(_ & _ & [E2|E2])]; rewrite E2; [exact I|exact Ee|exact E_fuel]. }
      destruct e as [c l cl|io|]; [apply Hout|apply Hout|exact E_fuel].
    - right. left. destruct (body s1) as [[a|x] s1']; cbn [fst] in Ee; [discriminate|]. inversion Ee. reflexivity.
    - destruct (body s1) as [[a1|x1] s1']; destruct (body s2) as [[a2|x2] s2']; cbn [fst snd] in *; try discriminate.
      + inversion Ee; subst a2. apply Hok. split; [apply Hr; exact I|exact Hd].
      + inversion Ee; subst x2. destruct x1 as [e|kk]; [|left; exact I].
        assert (Hout : psc (cont (Err e)) s1' s2').
        { destruct (Herr e s2') as [[_ E2]|(P2 & D2 & [E2|E2])]; [left; rewrite E2; exact I| |left; rewrite E2; exact E_fuel].
          destruct (Herr e s1') as [[P1 _]|(_ & D1 & [E1|E1])]; [rewrite Hd, P2 in P1; discriminate| |right; left; exact E1].
          right. right. rewrite E1, E2, D1, D2, Hd. split; [reflexivity|split; [reflexivity|intros []]]. }
        destruct e as [c l cl|io|]; [exact Hout|exact Hout|left; exact E_fuel].
  Qed.
  Lemma psx_nest_seq {A B} (body : PM A) (endm : M unit) (k : A -> PM B) :
    psx body -> sx endm -> (forall a, psx (k a)) ->
    psx (pbind (attempt body) (fun r =>
         pbind inc_depth (fun _ =>
         pbind (attempt (liftR endm)) (fun e =>
         pbind (both r e) k)))).
  Proof.
    intros Hb He Hk. apply (psx_nest_gen body (seq_cont endm k)); [exact Hb| |apply seq_cont_err].
    intros a. apply psx_seq_cont_ok; assumption.
  Qed.
  Lemma psx_nest_quote {A B} (body : PM A) (k : A -> PM B) :
    psx body -> (forall a, psx (k a)) ->
    psx (pbind (attempt body) (fun r => pbind inc_depth (fun _ => pbind (lift r) k))).
  Proof.
    intros Hb Hk. apply (psx_nest_gen body (quote_cont k)); [exact Hb| |apply quote_cont_err].
    intros a. apply psx_quote_cont_ok; assumption.
  Qed.

  (* one value or datum, then the end of the input: what from_trait and datum::from_trait run *)
  Lemma psx_whole {A} (m : PM A) fuel : sx (expect_end fuel) -> psx m ->
    psx (pbind m (fun v => pbind (expect_end_p fuel) (fun _ => pret v))).
  Proof. intros He Hm. apply psx_bind; [exact Hm|]. intros v. apply psx_bind; [apply psx_liftR, He|]. intros _. apply psx_pret. Qed.
End Escape.
