(* Facts about the printer model, for C07 and the round trips. *)
Require Import Base Value PrintOptions Printer.

Definition all_wall (t : trace) : Prop := Forall (fun c => fst c = WAll) t.

Lemma all_wall_nil : all_wall []. Proof. constructor. Qed.
Lemma all_wall_wall b : all_wall (wall b). Proof. repeat constructor. Qed.
Lemma all_wall_app a b : all_wall a -> all_wall b -> all_wall (a ++ b).
Proof. unfold all_wall; intros; apply Forall_app; auto. Qed.
#[export] Hint Resolve all_wall_nil all_wall_wall all_wall_app : wall.

Lemma flatten_app a b : flatten (a ++ b) = flatten a ++ flatten b.
Proof. unfold flatten; now rewrite map_app, concat_app. Qed.
Lemma flatten_wall b : flatten (wall b) = b.
Proof. unfold flatten, wall; simpl; now rewrite app_nil_r. Qed.
Lemma flatten_nil : flatten [] = [].
Proof. reflexivity. Qed.

(* A property of traces that holds of the empty trace and of concatenations
   holds of every printed value, once it holds of the punctuation the formatter
   writes and of the atoms. [good] restricts the values (to those whose
   strings are well-formed, say) and must pass to the parts of a value. *)
Section PrintClosed.
  Variable T : trace -> Prop.
  Hypothesis T_nil : T [].
  Hypothesis T_app : forall a b, T a -> T b -> T (a ++ b).
  Variable F : formatter.
  Hypothesis T_blist : T (begin_list F).
  Hypothesis T_elist : T (end_list F).
  Hypothesis T_bse : forall b, T (begin_seq_element F b).
  Hypothesis T_ese : T (end_seq_element F).
  Hypothesis T_bvec : forall k, T (begin_vector F k).
  Hypothesis T_evec : T (end_vector F).
  Hypothesis T_dot : T (write_dot F).
  Variable good : value -> Prop.
  Hypothesis good_cons : forall a d, good (Cons a d) -> good a /\ good d.
  Hypothesis good_vector : forall l, good (Vector l) -> Forall good l.
  Hypothesis T_atom : forall v, good v -> T (print_atom F v).

  Theorem print_closed v : good v -> T (print F v) /\ T (print_tail F v).
  Proof.
    assert (Hdot : T (dot_seq F)) by (unfold dot_seq; auto).
    induction v as [| |b|n|c|s|s|s|bs|a d IHa IHd|l H] using value_ind'; intros Hv;
      try (split; [exact (T_atom _ Hv)|first [exact T_nil | cbn [print_tail]; auto]]).
    - destruct (good_cons a d Hv) as [Hva Hvd]. destruct (IHa Hva) as [Ha _]. destruct (IHd Hvd) as [_ Hd].
      split; cbn [print print_tail]; auto 10.
    - assert (He : forall first,
                 T ((fix elems (first : bool) (l : list value) : trace :=
                       match l with
                       | [] => []
                       | x :: l' => begin_seq_element F first ++ print F x ++ end_seq_element F ++ elems false l'
                       end) first l)).
      { pose proof (good_vector l Hv) as Hl. clear Hv. induction H as [|x l Hx _ IH]; intros first; [exact T_nil|].
        destruct (Hx (Forall_inv Hl)) as [Hpx _]. specialize (IH (Forall_inv_tail Hl)). auto 10. }
      split; cbn [print print_tail]; auto 10.
  Qed.
End PrintClosed.

Record wf_fmt (F : formatter) : Prop := {
  wf_nil : all_wall (write_nil F);
  wf_null : all_wall (write_null F);
  wf_bool : forall b, all_wall (write_bool F b);
  wf_number : forall n, all_wall (write_number F n);
  wf_char : forall c, all_wall (write_char F c);
  wf_bstr : all_wall (begin_string F);
  wf_estr : all_wall (end_string F);
  wf_frag : forall s, all_wall (write_string_fragment F s);
  wf_esc : forall e, all_wall (write_char_escape F e);
  wf_sym : forall s, all_wall (write_symbol F s);
  wf_kw : forall s, all_wall (write_keyword F s);
  wf_bytes : forall b, all_wall (write_bytes F b);
  wf_blist : all_wall (begin_list F);
  wf_elist : all_wall (end_list F);
  wf_bse : forall b, all_wall (begin_seq_element F b);
  wf_ese : all_wall (end_seq_element F);
  wf_bvec : forall k, all_wall (begin_vector F k);
  wf_evec : all_wall (end_vector F);
  wf_dot : all_wall (write_dot F);
}.

Section WithRyu.
  Variable ryu : f64 -> bytes.

  Lemma all_wall_number n : all_wall (d_write_number ryu n).
  Proof. destruct n; simpl; auto with wall. Qed.

  Lemma all_wall_scheme_char c : all_wall (write_scheme_char c).
  Proof. unfold write_scheme_char; destruct (_ && _); auto with wall. Qed.

  Lemma all_wall_elisp_char c : all_wall (write_elisp_char c).
  Proof.
    unfold write_elisp_char; destruct (_ && _); [destruct (memb _ _)|]; auto with wall.
  Qed.

  Lemma all_wall_r6rs_escape e : all_wall (write_r6rs_char_escape e).
  Proof. destruct e; simpl; auto with wall. Qed.

  Lemma all_wall_elisp_escape e : all_wall (write_elisp_char_escape e).
  Proof. destruct e; simpl; auto with wall. Qed.

  Lemma all_wall_bse b : all_wall (d_begin_seq_element b).
  Proof. destruct b; simpl; auto with wall. Qed.

  Lemma all_wall_octets first l : all_wall (octets d_begin_seq_element [] first l).
  Proof.
    revert first; induction l as [|o l IH]; intros first; cbn [octets]; auto with wall.
    apply all_wall_app; [apply all_wall_bse|].
    apply all_wall_app; [auto with wall|]. cbn [app]. apply IH.
  Qed.

  Lemma all_wall_elisp_octets l : all_wall (elisp_octets l).
  Proof. induction l as [|o l IH]; cbn [elisp_octets]; auto 10 with wall. Qed.

  Lemma all_wall_d_begin_vector k : all_wall (d_begin_vector k).
  Proof. destruct k; unfold d_begin_vector; auto with wall. Qed.

  Lemma all_wall_d_write_bytes bs :
    all_wall (d_begin_vector VByte ++ octets d_begin_seq_element [] true bs ++ wall [41]).
  Proof.
    apply all_wall_app; [apply all_wall_d_begin_vector|].
    apply all_wall_app; [apply all_wall_octets|auto with wall].
  Qed.

  Lemma wf_default : wf_fmt (default_fmt ryu).
  Proof.
    constructor; cbn [default_fmt write_nil write_null write_bool write_number write_char
      begin_string end_string write_string_fragment write_char_escape write_symbol
      write_keyword write_bytes begin_list end_list begin_seq_element end_seq_element
      begin_vector end_vector write_dot]; intros;
    first [ solve [auto with wall]
          | apply all_wall_number | apply all_wall_scheme_char | apply all_wall_r6rs_escape
          | apply all_wall_d_write_bytes | apply all_wall_bse | apply all_wall_d_begin_vector
          | match goal with |- all_wall (wall (if ?b then _ else _)) => destruct b; auto with wall end ].
  Qed.

  Lemma all_wall_c_bool po b : all_wall (c_write_bool po b).
  Proof. unfold c_write_bool; destruct (po_bool po), b; auto with wall. Qed.

  Lemma all_wall_c_nil po : all_wall (c_write_nil po).
  Proof. unfold c_write_nil; destruct (po_nil po); auto with wall. apply all_wall_c_bool. Qed.
  Lemma all_wall_c_kw po s : all_wall (c_write_keyword po s).
  Proof. unfold c_write_keyword; destruct (po_keyword po); auto with wall. Qed.
  Lemma all_wall_c_bytes po bs : all_wall (c_write_bytes po bs).
  Proof.
    unfold c_write_bytes; destruct (po_bytes po);
      (apply all_wall_app; [auto with wall|]; apply all_wall_app;
       [first [apply all_wall_octets|apply all_wall_elisp_octets]|auto with wall]).
  Qed.
  Lemma all_wall_c_bvec po k : all_wall (c_begin_vector po k).
  Proof.
    unfold c_begin_vector; destruct (po_vector po); auto with wall.
    destruct k; auto with wall. destruct (po_bytes po); auto with wall.
  Qed.
  Lemma all_wall_c_evec po : all_wall (c_end_vector po).
  Proof. unfold c_end_vector; destruct (po_vector po); auto with wall. Qed.

  Lemma wf_custom po : wf_fmt (custom_fmt ryu po).
  Proof.
    constructor; cbn [custom_fmt write_nil write_null write_bool write_number write_char
      begin_string end_string write_string_fragment write_char_escape write_symbol
      write_keyword write_bytes begin_list end_list begin_seq_element end_seq_element
      begin_vector end_vector write_dot]; intros;
    first [ solve [auto with wall]
          | apply all_wall_c_nil | apply all_wall_c_bool | apply all_wall_number
          | apply all_wall_c_kw | apply all_wall_c_bytes | apply all_wall_bse
          | apply all_wall_c_bvec | apply all_wall_c_evec
          | destruct (po_char po); [apply all_wall_scheme_char|apply all_wall_elisp_char]
          | destruct (po_string po); [apply all_wall_r6rs_escape|apply all_wall_elisp_escape] ].
  Qed.

  Section Fixed.
    Variable F : formatter.
    Hypothesis HF : wf_fmt F.

    Lemma all_wall_esc frag s : all_wall (esc_contents F frag s).
    Proof.
      revert frag; induction s as [|b s IH]; intros frag; simpl.
      - destruct frag; auto with wall. apply (wf_frag F HF).
      - destruct (escape_of b).
        + apply all_wall_app; [destruct frag; auto with wall; apply (wf_frag F HF)|].
          apply all_wall_app; [apply (wf_esc F HF)|apply IH].
        + apply IH.
    Qed.

    Lemma all_wall_atom v : all_wall (print_atom F v).
    Proof.
      destruct HF. destruct v; simpl; auto with wall.
      unfold format_escaped_str. apply all_wall_app; auto. apply all_wall_app; auto.
      apply all_wall_esc.
    Qed.

    Lemma all_wall_print v : all_wall (print F v).
    Proof.
      apply (print_closed all_wall all_wall_nil all_wall_app F (wf_blist F HF) (wf_elist F HF) (wf_bse F HF) (wf_ese F HF)
               (wf_bvec F HF) (wf_evec F HF) (wf_dot F HF) (fun _ => True)); auto using all_wall_atom.
      intros l _. apply Forall_forall. auto.
    Qed.
  End Fixed.

  Lemma custom_default_is_default : custom_fmt ryu default_po = default_fmt ryu.
  Proof. reflexivity. Qed.
End WithRyu.
