(* C01: the default printer's text, read by the default parser from a str, a
   byte slice or an io::Read stream, gives the value back. *)
From Coq Require Import SpecFloat ZifyBool ZifyNat ZifyN.
Require Import Base Value Float PrintOptions Printer ParseOptions Utf8 Reader Scan Num NumberOps Parser Depth.
Require Import ListProofs ReaderProofs ScanProofs TextProofs TokenProofs NumTokenProofs CharStrProofs BytesLayout DepthProofs.

(* nesting budget needed to read a value back: "()" takes a level too *)
Fixpoint rdepth (v : value) : nat :=
  match v with
  | Null => 1
  | Cons a d => S (Nat.max (rdepth a) (rdepth_rest d))
  | Vector l => S (list_max (map rdepth l))
  | _ => 0
  end
with rdepth_rest (d : value) : nat :=
  match d with
  | Null => 0
  | Cons a d' => Nat.max (rdepth a) (rdepth_rest d')
  | Vector l => S (list_max (map rdepth l))
  | _ => 0
  end.
Lemma rdepth_rest_le d : (rdepth_rest d <= rdepth d)%nat.
Proof. destruct d; cbn [rdepth rdepth_rest]; lia. Qed.
Lemma rdepth_le_rest d : (rdepth d <= S (rdepth_rest d))%nat.
Proof. destruct d; cbn [rdepth rdepth_rest]; lia. Qed.

Definition mkp (r : reader) (D : N) : pstate := {| rd := r; depth := D |}.

Lemma liftR_ok {A} (m : M A) r D a r' : m r = (Ok a, r') -> liftR m (mkp r D) = (POk a, mkp r' D).
Proof. intros E. unfold liftR, mkp. cbn [rd depth]. rewrite E. reflexivity. Qed.

Lemma attempt_ok {A} (m : PM A) s a s' : m s = (POk a, s') -> attempt m s = (POk (Ok a), s').
Proof. intros E. unfold attempt. rewrite E. reflexivity. Qed.

Lemma enter_ok r D : 1 < D -> enter_nesting (mkp r D) = (POk tt, mkp r (D - 1)).
Proof.
  intros HD. unfold enter_nesting, dec_depth, pbind, get_depth, set_depth, mkp. cbn [depth rd].
  replace (D =? 0) with false by lia. cbn [depth rd]. replace (D - 1 =? 0) with false by lia. reflexivity.
Qed.

Lemma inc_ok r D : D < 255 -> inc_depth (mkp r D) = (POk tt, mkp r (D + 1)).
Proof. intros H. apply inc_depth_spec. exact H. Qed.

Lemma build_snoc acc a d : build (acc ++ [a]) d = build acc (Cons a d).
Proof. exact (eq_sym (build_app acc [a] d)). Qed.

Lemma starts_byte c : is_ws c = false -> (c =? 59) = false -> starts_datum c.
Proof. intros Hw Hc. split; [exact Hw|]. intros ->. discriminate. Qed.

Lemma trivia_space : trivia [32].
Proof. apply tv_ws; [reflexivity|constructor]. Qed.

Lemma closer_byte c : c = 41 \/ c = 93 -> starts_datum c /\ is_closer c = true.
Proof. intros [->| ->]; repeat split; discriminate. Qed.

Lemma trivia_eof_delim t : trivia_eof t -> delim_ok t.
Proof.
  intros [t' Ht|t' body Ht Hb].
  - destruct t' as [|c t'']; [exact I|]. exact (trivia_delim (c :: t'') 41 [] Ht eq_refl).
  - exact (trivia_delim t' 59 body Ht eq_refl).
Qed.

Definition K : nat := 16.

(* how next_value, parse_list and parse_vector walk over a text, under any
   option set: the steps shared by every dialect and by every spelling *)
Lemma end_seq_at f r c rest : (1 <= f)%nat -> starts_datum c -> at_bytes r (c :: rest) ->
  exists r', end_seq f c r = (Ok tt, r') /\ at_bytes r' rest /\ rk r' = rk r.
Proof.
  intros Hf Hs Ha. unfold end_seq.
  destruct (ws_here f r c rest Hf Ha Hs) as (r0 & E0 & Ha0 & Hp0 & Hk0).
  rewrite (bind_ok _ _ _ _ _ E0). rewrite N.eqb_refl.
  destruct (m_eat r0 c rest Ha0 Hp0) as (r1 & E1 & Ha1 & Hk1). exists r1. repeat split; auto; congruence.
Qed.
Lemma seq_wrap {A} (m : PM A) (k : A -> value) f c r D a r2 rest :
  1 < D -> D <= 128 -> (1 <= f)%nat -> starts_datum c ->
  m (mkp r (D - 1)) = (POk a, mkp r2 (D - 1)) -> at_bytes r2 (c :: rest) ->
  exists r3,
    pbind enter_nesting (fun _ =>
    pbind (attempt m) (fun x =>
    pbind inc_depth (fun _ =>
    pbind (attempt (liftR (end_seq f c))) (fun e =>
    pbind (both x e) (fun y => pret (Some (k y))))))) (mkp r D) = (POk (Some (k a)), mkp r3 D) /\
    at_bytes r3 rest /\ rk r3 = rk r2.
Proof.
  intros HD HD' Hf Hs E2 Ha2.
  rewrite (pbind_eq _ _ _ _ _ (enter_ok r D ltac:(lia))).
  rewrite (pbind_eq _ _ _ _ _ (attempt_ok _ _ _ _ E2)).
  rewrite (pbind_eq _ _ _ _ _ (inc_ok r2 (D - 1) ltac:(lia))).
  replace (D - 1 + 1) with D by lia.
  destruct (end_seq_at f r2 c rest Hf Hs Ha2) as (r3 & E3 & Ha3 & Hk3).
  rewrite (pbind_eq _ _ _ _ _ (attempt_ok _ _ _ _ (liftR_ok _ r2 D _ _ E3))).
  exists r3. split; [reflexivity|]. split; assumption.
Qed.

Section Walk.
  Variable alpha : N -> bool.
  Variable fast : bool.
  Variable std_parse : N -> Z -> f64.
  Variable ro : parse_options.
  Local Notation parse_token := (parse_token ro alpha fast std_parse).
  Local Notation next_value := (next_value ro alpha fast std_parse).
  Local Notation parse_list := (parse_list ro alpha fast std_parse).
  Local Notation parse_vector := (parse_vector ro alpha fast std_parse).

  Definition after_token (f : nat) (tok : token) : PM (option value) :=
    match tok with
    | TNil => pret (Some Nil)
    | TNull => pret (Some Null)
    | TChar c => pret (Some (Char c))
    | TBool b => pret (Some (Bool b))
    | TNumber n => pret (Some (Number n))
    | TSymbol s => pret (Some (Symbol s))
    | TKeyword s => pret (Some (Keyword s))
    | TString s => pret (Some (String s))
    | TBytes b => pret (Some (Bytes b))
    | TByteVecOpen close => pbind (liftR (parse_byte_list fast std_parse f close)) (fun b => pret (Some (Bytes b)))
    | TVecOpen close =>
        pbind enter_nesting (fun _ =>
        pbind (attempt (parse_vector f close [])) (fun r =>
        pbind inc_depth (fun _ =>
        pbind (attempt (liftR (end_seq f close))) (fun e =>
        pbind (both r e) (fun els => pret (Some (Vector els)))))))
    | TListOpen close =>
        pbind enter_nesting (fun _ =>
        pbind (attempt (parse_list f close [])) (fun r =>
        pbind inc_depth (fun _ =>
        pbind (attempt (liftR (end_seq f close))) (fun e =>
        pbind (both r e) (fun l => pret (Some l))))))
    | TQuotation name =>
        pbind enter_nesting (fun _ =>
        pbind (attempt (next_value f)) (fun r =>
        pbind inc_depth (fun _ =>
        pbind (lift r) (fun o =>
        match o with
        | Some d => pret (Some (vlist [Symbol name; d]))
        | None => liftR (peek_error EofWhileParsingList)
        end))))
    end.

  Lemma next_value_S f :
    next_value (S f) =
    pbind (liftR (parse_whitespace f)) (fun o =>
      match o with
      | None => pret None
      | Some b => pbind (liftR (parse_token f b)) (fun tok => after_token f tok)
      end).
  Proof. reflexivity. Qed.

  Lemma next_value_at f r D pre b l :
    (length pre < f)%nat -> trivia pre -> at_bytes r (pre ++ b :: l) -> starts_datum b ->
    exists r0, at_bytes r0 (b :: l) /\ peeked r0 /\ rk r0 = rk r /\
      forall tok r1, parse_token f b r0 = (Ok tok, r1) ->
                     next_value (S f) (mkp r D) = after_token f tok (mkp r1 D).
  Proof.
    intros Hf Hpre Ha Hb.
    destruct (ws_trivia pre Hpre f r b l Hf Ha Hb) as (r0 & E0 & Ha0 & Hp0 & Hk0).
    exists r0. repeat split; auto. intros tok r1 Etok. rewrite next_value_S.
    rewrite (pbind_eq _ _ _ _ _ (liftR_ok _ r D _ _ E0)).
    rewrite (pbind_eq _ _ _ _ _ (liftR_ok _ r0 D _ _ Etok)). reflexivity.
  Qed.

  Lemma parse_list_S f t acc :
    parse_list (S f) t acc =
    pbind (liftR (parse_whitespace f)) (fun o =>
      match o with
      | None => liftR (peek_error EofWhileParsingList)
      | Some c =>
          if is_closer c then
            (if negb (c =? t) then liftR (peek_error MismatchedParenthesis) else pret (build acc Null))
          else if c =? 46 then
            pbind (liftR (eat_char ;;; peek)) (fun nx =>
            if lone_dot nx then
              match acc with
              | [] =>
                  pbind (liftR peek) (fun o3 =>
                  match o3 with
                  | Some _ => liftR (peek_error ExpectedSomeValue)
                  | None => liftR (peek_error EofWhileParsingList)
                  end)
              | _ =>
                  pbind (next_value f) (fun ov =>
                  match ov with
                  | None => liftR (peek_error EofWhileParsingValue)
                  | Some cdr =>
                      pbind (liftR (parse_whitespace f)) (fun o2 =>
                      match o2 with
                      | Some c2 => if c2 =? t then pret (build acc cdr)
                                   else liftR (peek_error TrailingCharacters)
                      | None => liftR (peek_error EofWhileParsingList)
                      end)
                  end)
              end
            else
              pbind (liftR (parse_symbol_suffix f [46])) (fun name =>
              parse_list f t (acc ++ [symbol_value ro name])))
          else
            pbind (next_value f) (fun ov =>
            match ov with
            | None => liftR (peek_error EofWhileParsingValue)
            | Some v => parse_list f t (acc ++ [v])
            end)
      end).
  Proof. reflexivity. Qed.

  Lemma parse_vector_S f t acc :
    parse_vector (S f) t acc =
    pbind (liftR (parse_whitespace f)) (fun o =>
      match o with
      | None => liftR (peek_error EofWhileParsingVector)
      | Some c =>
          if is_closer c then
            (if negb (c =? t) then liftR (peek_error MismatchedParenthesis) else pret acc)
          else
            pbind (next_value f) (fun ov =>
            match ov with
            | None => liftR (peek_error EofWhileParsingValue)
            | Some v => parse_vector f t (acc ++ [v])
            end)
      end).
  Proof. reflexivity. Qed.

  (* next_value reads the text tx as the value w, whatever trivia stands
     before it and whatever delimiter after; n is the nesting budget it needs *)
  Definition reads (tx : bytes) (w : value) (n : nat) : Prop :=
    forall fuel r D pre rest, trivia pre -> N.of_nat n < D -> D <= 128 ->
      (length pre + length tx + K <= fuel)%nat -> at_bytes r (pre ++ tx ++ rest) -> delim_ok rest ->
      exists r', next_value fuel (mkp r D) = (POk (Some w), mkp r' D) /\ at_bytes r' rest /\ rk r' = rk r.

  Lemma reads_token tx w b t tok :
    tx = b :: t -> starts_datum b -> (forall f, after_token f tok = pret (Some w)) ->
    (forall f r rest, (length tx + 15 <= f)%nat -> delim_ok rest -> at_bytes r (tx ++ rest) -> peeked r ->
       exists r1, parse_token f b r = (Ok tok, r1) /\ at_bytes r1 rest /\ rk r1 = rk r) ->
    reads tx w 0.
  Proof.
    intros E Hst Hafter Htok fuel r D pre rest Hpre _ _ Hf Ha Hr.
    destruct fuel as [|f]; [unfold K in Hf; lia|]. unfold K in Hf.
    pose proof Ha as Ha'. rewrite E in Ha'. cbn [app] in Ha'.
    destruct (next_value_at f r D pre b _ ltac:(lia) Hpre Ha' Hst) as (r0 & Ha0 & Hp0 & Hk0 & Hnv).
    change (b :: t ++ rest) with ((b :: t) ++ rest) in Ha0. rewrite <- E in Ha0.
    destruct (Htok f r0 rest ltac:(lia) Hr Ha0 Hp0) as (r1 & E1 & Ha1 & Hk1).
    exists r1. rewrite (Hnv _ _ E1), Hafter. split; [reflexivity|]. split; [assumption|congruence].
  Qed.

  (* parse_list reads tx, the rest of a list body up to (not including) the
     closer c, as the chain w; a body that is only a dotted tail needs an
     element read before it *)
  Definition reads_list (c : N) (tx : bytes) (w : value) (n : nat) (dotted : bool) : Prop :=
    forall fuel r D acc rest, N.of_nat n < D -> D <= 128 -> (length tx + 1 + K <= fuel)%nat ->
      at_bytes r (tx ++ c :: rest) -> (dotted = true -> acc <> []) ->
      exists r', parse_list fuel c acc (mkp r D) = (POk (build acc w), mkp r' D) /\
                 at_bytes r' (c :: rest) /\ rk r' = rk r.

  Definition reads_vector (c : N) (tx : bytes) (items : list value) (n : nat) : Prop :=
    forall fuel r D acc rest, N.of_nat n < D -> D <= 128 -> (length tx + 1 + K <= fuel)%nat ->
      at_bytes r (tx ++ c :: rest) ->
      exists r', parse_vector fuel c acc (mkp r D) = (POk (acc ++ items), mkp r' D) /\
                 at_bytes r' (c :: rest) /\ rk r' = rk r.

  Definition list_step (c : N) (tx : bytes) (a : value) (n : nat) : Prop :=
    forall f r D acc pre more, trivia pre -> N.of_nat n < D -> D <= 128 ->
      (length pre + length tx + K <= f)%nat -> at_bytes r (pre ++ tx ++ more) -> delim_ok more ->
      exists r1, parse_list (S f) c acc (mkp r D) = parse_list f c (acc ++ [a]) (mkp r1 D) /\
                 at_bytes r1 more /\ rk r1 = rk r.

  Lemma element_read tx a n b t : reads tx a n -> tx = b :: t -> starts_datum b ->
    forall f r D pre more, trivia pre -> N.of_nat n < D -> D <= 128 ->
      (length pre + length tx + K <= f)%nat -> at_bytes r (pre ++ tx ++ more) -> delim_ok more ->
      exists r0 r1, parse_whitespace f r = (Ok (Some b), r0) /\
                    next_value f (mkp r0 D) = (POk (Some a), mkp r1 D) /\ at_bytes r1 more /\ rk r1 = rk r.
  Proof.
    intros HP E Hst f r D pre more Hpre HD HD' Hf Ha Hm. unfold K in Hf.
    pose proof Ha as Ha'. rewrite E in Ha'. cbn [app] in Ha'.
    destruct (ws_trivia pre Hpre f r b (t ++ more) ltac:(lia) Ha' Hst) as (r0 & E0 & Ha0 & Hp0 & Hk0).
    change (b :: t ++ more) with ((b :: t) ++ more) in Ha0. rewrite <- E in Ha0.
    destruct (HP f r0 D [] more tv_nil HD HD' ltac:(unfold K; cbn [length]; lia) Ha0 Hm) as (r1 & E1 & Ha1 & Hk1).
    exists r0, r1. split; [exact E0|]. split; [exact E1|]. split; [assumption|congruence].
  Qed.

  Lemma list_item c tx a n b t : reads tx a n -> tx = b :: t -> starts_datum b -> is_closer b = false -> b <> 46 ->
    list_step c tx a n.
  Proof.
    intros HP E Hst Hcl H46 f r D acc pre more Hpre HD HD' Hf Ha Hm.
    destruct (element_read tx a n b t HP E Hst f r D pre more Hpre HD HD' Hf Ha Hm) as (r0 & r1 & E0 & E1 & Ha1 & Hk1).
    rewrite parse_list_S, (pbind_eq _ _ _ _ _ (liftR_ok _ r D _ _ E0)), Hcl.
    replace (b =? 46) with false by lia. rewrite (pbind_eq _ _ _ _ _ E1).
    exists r1. split; [reflexivity|]. split; assumption.
  Qed.

  (* a symbol that begins with a dot: parse_list reads it itself *)
  Lemma list_dot_symbol c s : no_terminator (46 :: s) -> symbol_ok (46 :: s) ->
    forall f r D acc pre more, trivia pre -> (length pre + S (length s) + K <= f)%nat ->
      at_bytes r (pre ++ (46 :: s) ++ more) -> delim_ok more ->
      exists r1, parse_list (S f) c acc (mkp r D) = parse_list f c (acc ++ [symbol_value ro (46 :: s)]) (mkp r1 D) /\
                 at_bytes r1 more /\ rk r1 = rk r.
  Proof.
    intros Hn Hsok f r D acc pre more Hpre Hf Ha Hm. unfold K in Hf. cbn [app length] in Ha, Hf.
    destruct s as [|c2 s]; [destruct Hsok as [Hnd _]; discriminate Hnd|].
    inversion Hn as [|? ? _ Hn']; subst. pose proof (Forall_inv Hn') as Hc2. cbv beta in Hc2.
    rewrite parse_list_S.
    destruct (ws_trivia pre Hpre f r 46 _ ltac:(lia) Ha (starts_byte 46 eq_refl eq_refl)) as (r0 & E0 & Ha0 & Hp0 & Hk0).
    rewrite (pbind_eq _ _ _ _ _ (liftR_ok _ r D _ _ E0)).
    change (is_closer 46) with false. change (46 =? 46) with true. cbv iota.
    destruct (m_eat r0 46 _ Ha0 Hp0) as (r1 & E1 & Ha1 & Hk1). cbn [app] in Ha1.
    destruct (m_peek_cons r1 c2 _ Ha1) as (r2 & E2 & Ha2 & Hp2 & Hk2).
    assert (E12 : (eat_char ;;; peek) r0 = (Ok (Some c2), r2)) by (rewrite (bind_ok _ _ _ _ _ E1); exact E2).
    rewrite (pbind_eq _ _ _ _ _ (liftR_ok _ r0 D _ _ E12)).
    cbn [lone_dot]. rewrite Hc2.
    destruct (parse_symbol_spec (c2 :: s) f [46] more r2 ltac:(cbn [length] in *; lia) Hn'
                Hm Ha2 Hsok) as (r3 & E3 & Ha3 & Hk3 & _).
    unfold parse_symbol_suffix.
    rewrite (pbind_eq _ _ _ _ _ (liftR_ok _ r2 D _ _ E3)).
    exists r3. split; [reflexivity|]. split; [assumption|congruence].
  Qed.

  Lemma list_end c cp dotted : c = 41 \/ c = 93 -> trivia cp -> reads_list c cp Null 0 dotted.
  Proof.
    intros Hc Hcp fuel r D acc rest _ _ Hf Ha _. destruct fuel as [|f]; [unfold K in Hf; lia|]. unfold K in Hf.
    destruct (closer_byte c Hc) as [Hs Hcl]. rewrite parse_list_S.
    destruct (ws_trivia cp Hcp f r c rest ltac:(lia) Ha Hs) as (r0 & E0 & Ha0 & _ & Hk0).
    rewrite (pbind_eq _ _ _ _ _ (liftR_ok _ r D _ _ E0)), Hcl, N.eqb_refl.
    exists r0. split; [reflexivity|]. auto.
  Qed.

  Lemma vector_end c cp : c = 41 \/ c = 93 -> trivia cp -> reads_vector c cp [] 0.
  Proof.
    intros Hc Hcp fuel r D acc rest _ _ Hf Ha. destruct fuel as [|f]; [unfold K in Hf; lia|]. unfold K in Hf.
    destruct (closer_byte c Hc) as [Hs Hcl]. rewrite parse_vector_S.
    destruct (ws_trivia cp Hcp f r c rest ltac:(lia) Ha Hs) as (r0 & E0 & Ha0 & _ & Hk0).
    rewrite (pbind_eq _ _ _ _ _ (liftR_ok _ r D _ _ E0)), Hcl, N.eqb_refl.
    exists r0. rewrite app_nil_r. split; [reflexivity|]. auto.
  Qed.

  Lemma list_cons c p tx a n btx w m dotted dotted' :
    list_step c tx a n -> (1 <= length tx)%nat -> trivia p -> (forall rest, delim_ok (btx ++ c :: rest)) ->
    reads_list c btx w m dotted' -> reads_list c (p ++ tx ++ btx) (Cons a w) (Nat.max n m) dotted.
  Proof.
    intros Hstep Hlen Hp Hd HT fuel r D acc rest HD HD' Hf Ha _.
    destruct fuel as [|f]; [unfold K in Hf; lia|]. unfold K in Hf.
    rewrite <- !app_assoc in Ha. rewrite !app_length in Hf.
    destruct (Hstep f r D acc p (btx ++ c :: rest) Hp ltac:(lia) HD' ltac:(unfold K; lia) Ha (Hd rest)) as (r1 & E1 & Ha1 & Hk1).
    rewrite E1.
    destruct (HT f r1 D (acc ++ [a]) rest ltac:(lia) HD' ltac:(unfold K; lia) Ha1
                ltac:(intros _; destruct acc; discriminate)) as (r2 & E2 & Ha2 & Hk2).
    exists r2. rewrite E2, build_snoc. split; [reflexivity|]. split; [assumption|congruence].
  Qed.

  Lemma vector_cons c p tx a n b t btx items m :
    reads tx a n -> tx = b :: t -> starts_datum b -> is_closer b = false -> trivia p ->
    (forall rest, delim_ok (btx ++ c :: rest)) ->
    reads_vector c btx items m -> reads_vector c (p ++ tx ++ btx) (a :: items) (Nat.max n m).
  Proof.
    intros HP E Hst Hcl Hp Hd HT fuel r D acc rest HD HD' Hf Ha.
    destruct fuel as [|f]; [unfold K in Hf; lia|]. unfold K in Hf.
    assert (Hlen : (1 <= length tx)%nat) by (rewrite E; cbn [length]; lia).
    rewrite <- !app_assoc in Ha. rewrite !app_length in Hf.
    destruct (element_read tx a n b t HP E Hst f r D p (btx ++ c :: rest) Hp ltac:(lia) HD' ltac:(unfold K; lia) Ha (Hd rest))
      as (r0 & r1 & E0 & E1 & Ha1 & Hk1).
    rewrite parse_vector_S, (pbind_eq _ _ _ _ _ (liftR_ok _ r D _ _ E0)), Hcl, (pbind_eq _ _ _ _ _ E1).
    destruct (HT f r1 D (acc ++ [a]) rest ltac:(lia) HD' ltac:(unfold K; lia) Ha1) as (r2 & E2 & Ha2 & Hk2).
    exists r2. rewrite E2, <- app_assoc. split; [reflexivity|]. split; [assumption|congruence].
  Qed.

  (* trivia "." trivia tail trivia: the dot stands alone, so what follows it ends a symbol *)
  Lemma list_dot c p1 p2 tx w n cp : c = 41 \/ c = 93 -> reads tx w n -> (1 <= length tx)%nat ->
    trivia p1 -> trivia p2 -> delim_ok (p2 ++ tx) -> trivia cp ->
    reads_list c (p1 ++ 46 :: p2 ++ tx ++ cp) w n true.
  Proof.
    intros Hc HP Hlt Hp1 Hp2 Hd2 Hcp fuel r D acc rest HD HD' Hf Ha Hacc.
    destruct fuel as [|f]; [unfold K in Hf; lia|]. unfold K in Hf.
    destruct (closer_byte c Hc) as [Hs Hcl].
    assert (Hdc : forall l, delim_ok (c :: l)) by (intros l; destruct Hc as [->| ->]; reflexivity).
    rewrite !app_length in Hf. cbn [length] in Hf. rewrite !app_length in Hf.
    rewrite <- !app_assoc in Ha. cbn [app] in Ha. rewrite <- !app_assoc in Ha.
    rewrite parse_list_S.
    destruct (ws_trivia p1 Hp1 f r 46 _ ltac:(lia) Ha (starts_byte 46 eq_refl eq_refl)) as (r0 & E0 & Ha0 & Hp0 & Hk0).
    rewrite (pbind_eq _ _ _ _ _ (liftR_ok _ r D _ _ E0)).
    change (is_closer 46) with false. change (46 =? 46) with true. cbv iota.
    destruct (m_eat r0 46 _ Ha0 Hp0) as (r1 & E1 & Ha1 & Hk1).
    assert (Hnx : exists nx l, p2 ++ tx ++ cp ++ c :: rest = nx :: l /\ is_symbol_terminator nx = true).
    { destruct (p2 ++ tx) as [|nx l] eqn:El.
      - apply app_eq_nil in El. destruct El as [_ El]. rewrite El in Hlt. cbn in Hlt. lia.
      - exists nx, (l ++ cp ++ c :: rest). split; [|exact Hd2].
        rewrite (app_assoc p2), El. reflexivity. }
    destruct Hnx as (nx & l & El & Hterm).
    pose proof Ha1 as Ha1'. rewrite El in Ha1'.
    destruct (m_peek_cons r1 nx _ Ha1') as (r2 & E2 & Ha2 & Hp2' & Hk2).
    assert (E12 : (eat_char ;;; peek) r0 = (Ok (Some nx), r2)) by (rewrite (bind_ok _ _ _ _ _ E1); exact E2).
    rewrite (pbind_eq _ _ _ _ _ (liftR_ok _ r0 D _ _ E12)).
    cbn [lone_dot]. rewrite Hterm.
    destruct acc as [|x acc]; [exfalso; apply (Hacc eq_refl); reflexivity|].
    rewrite <- El in Ha2.
    destruct (HP f r2 D p2 (cp ++ c :: rest) Hp2 HD HD' ltac:(unfold K; lia) Ha2
                (trivia_delim cp c rest Hcp (Hdc rest))) as (r3 & E3 & Ha3 & Hk3).
    rewrite (pbind_eq _ _ _ _ _ E3).
    destruct (ws_trivia cp Hcp f r3 c rest ltac:(lia) Ha3 Hs) as (r4 & E4 & Ha4 & Hp4 & Hk4).
    rewrite (pbind_eq _ _ _ _ _ (liftR_ok _ r3 D _ _ E4)), N.eqb_refl.
    exists r4. split; [reflexivity|]. split; [assumption|congruence].
  Qed.

  Lemma list_seq c b0 tk tx w n : c = 41 \/ c = 93 -> starts_datum b0 ->
    (forall f r rest, at_bytes r (b0 :: tk ++ rest) -> peeked r ->
       exists r', parse_token f b0 r = (Ok (TListOpen c), r') /\ at_bytes r' rest /\ rk r' = rk r) ->
    reads_list c tx w n false -> reads (b0 :: tk ++ tx ++ [c]) w (S n).
  Proof.
    intros Hc Hst Htok HT fuel r D pre rest Hpre HD HD' Hf Ha Hr.
    destruct fuel as [|f]; [unfold K in Hf; lia|]. unfold K in Hf.
    cbn [app length] in Ha, Hf. rewrite !app_length in Hf. cbn [length] in Hf.
    destruct (next_value_at f r D pre b0 _ ltac:(lia) Hpre Ha Hst) as (r0 & Ha0 & Hp0 & Hk0 & Hnv).
    rewrite <- !app_assoc in Ha0. cbn [app] in Ha0.
    destruct (Htok f r0 _ Ha0 Hp0) as (r1 & E1 & Ha1 & Hk1). rewrite (Hnv _ _ E1).
    destruct (HT f r1 (D - 1) [] rest ltac:(lia) ltac:(lia) ltac:(unfold K; lia) Ha1 ltac:(discriminate)) as (r2 & E2 & Ha2 & Hk2).
    destruct (seq_wrap (parse_list f c []) (fun l => l) f c r1 D _ r2 rest ltac:(lia) HD' ltac:(lia)
                (proj1 (closer_byte c Hc)) E2 Ha2) as (r3 & E3 & Ha3 & Hk3).
    exists r3. split; [exact E3|]. split; [assumption|congruence].
  Qed.

  Lemma vector_seq c b0 tk tx items n : c = 41 \/ c = 93 -> starts_datum b0 ->
    (forall f r rest, at_bytes r (b0 :: tk ++ rest) -> peeked r ->
       exists r', parse_token f b0 r = (Ok (TVecOpen c), r') /\ at_bytes r' rest /\ rk r' = rk r) ->
    reads_vector c tx items n -> reads (b0 :: tk ++ tx ++ [c]) (Vector items) (S n).
  Proof.
    intros Hc Hst Htok HT fuel r D pre rest Hpre HD HD' Hf Ha Hr.
    destruct fuel as [|f]; [unfold K in Hf; lia|]. unfold K in Hf.
    cbn [app length] in Ha, Hf. rewrite !app_length in Hf. cbn [length] in Hf.
    destruct (next_value_at f r D pre b0 _ ltac:(lia) Hpre Ha Hst) as (r0 & Ha0 & Hp0 & Hk0 & Hnv).
    rewrite <- !app_assoc in Ha0. cbn [app] in Ha0.
    destruct (Htok f r0 _ Ha0 Hp0) as (r1 & E1 & Ha1 & Hk1). rewrite (Hnv _ _ E1).
    destruct (HT f r1 (D - 1) [] rest ltac:(lia) ltac:(lia) ltac:(unfold K; lia) Ha1) as (r2 & E2 & Ha2 & Hk2).
    destruct (seq_wrap (parse_vector f c []) Vector f c r1 D _ r2 rest ltac:(lia) HD' ltac:(lia)
                (proj1 (closer_byte c Hc)) E2 Ha2) as (r3 & E3 & Ha3 & Hk3).
    exists r3. split; [exact E3|]. split; [assumption|congruence].
  Qed.

  (* the whole entry point: Parser::from_{str,slice,reader}(text).expect_value() then end() *)
  Lemma from_trait_reads tx w n k pre post : reads tx w n -> (n <= 127)%nat -> trivia pre -> trivia_eof post ->
    from_trait ro alpha fast std_parse k (bytes_events (pre ++ tx ++ post)) = POk w.
  Proof.
    intros HP Hd Hpre Hpost. unfold from_trait. set (inp := bytes_events (pre ++ tx ++ post)). set (fuel := fuel_for inp).
    assert (Hlen : length inp = (length pre + length tx + length post)%nat).
    { unfold inp, bytes_events. rewrite map_length, !app_length. lia. }
    assert (Hfuel : (length pre + length tx + K <= fuel)%nat) by (unfold fuel, fuel_for, K; lia).
    assert (Ha : at_bytes (mk_reader k inp) (pre ++ tx ++ post)) by reflexivity.
    destruct (HP fuel (mk_reader k inp) initial_depth pre post Hpre
                ltac:(unfold initial_depth; lia) ltac:(unfold initial_depth; lia) Hfuel Ha (trivia_eof_delim post Hpost))
      as (r' & E & Ha' & Hk').
    change (init_state k inp) with (mkp (mk_reader k inp) initial_depth).
    unfold expect_value. rewrite (pbind_eq _ _ _ _ _ (pbind_eq _ _ _ _ _ E)).
    unfold pret at 1. unfold expect_end_p, expect_end.
    destruct (ws_trivia_end post Hpost fuel r' ltac:(unfold fuel, fuel_for; lia) Ha') as (r2 & E2 & Ha2 & _).
    assert (E3 : (o <- parse_whitespace fuel ;; match o with Some _ => peek_error TrailingCharacters | None => ret tt end) r' = (Ok tt, r2))
      by (rewrite (bind_ok _ _ _ _ _ E2); reflexivity).
    rewrite (pbind_eq _ _ _ _ _ (liftR_ok _ r' initial_depth _ _ E3)). reflexivity.
  Qed.

  Lemma iterate_end post fuel n r D : trivia_eof post -> (length post + 2 < fuel)%nat -> at_bytes r post ->
    iterate_values ro alpha fast std_parse fuel (S n) (mkp r D) = [].
  Proof.
    intros Hpost Hf Ha. cbn [iterate_values]. destruct fuel as [|f]; [lia|]. rewrite next_value_S.
    destruct (ws_trivia_end post Hpost f r ltac:(lia) Ha) as (r1 & E1 & _).
    rewrite (pbind_eq _ _ _ _ _ (liftR_ok _ r D _ _ E1)). reflexivity.
  Qed.
End Walk.

Section Roundtrip.
  Variable ryu : f64 -> bytes.
  Variable alpha : N -> bool.
  Variable fast : bool.
  Variable std_parse : N -> Z -> f64.
  Local Notation ro := default_ro.
  Local Notation next_value := (next_value ro alpha fast std_parse).
  Local Notation parse_list := (parse_list ro alpha fast std_parse).
  Local Notation txt := (txt ryu).
  Local Notation txt_tail := (txt_tail ryu).
  Local Notation vec_elems := (vec_elems ryu).
  Local Notation reads := (reads alpha fast std_parse ro).
  Local Notation reads_list := (reads_list alpha fast std_parse ro).
  Local Notation reads_vector := (reads_vector alpha fast std_parse ro).
  Local Notation reads_token := (reads_token alpha fast std_parse ro).

(* identifiers the default reader takes as one symbol token wherever they
   stand: an ASCII letter, one of !$%&*./<=>?@^_~ or ':' first, or a sign
   followed by nothing, a sign-subsequent, . | NUL, a double quote or a byte > 127, or a
   non-ASCII alphabetic character (char::is_alphabetic: alpha) first; no
   whitespace, parenthesis, bracket or ';' inside; well-formed UTF-8; not "." *)
Definition plain_symbol (s : bytes) : Prop :=
  no_terminator s /\ symbol_ok s /\
  match s with
  | [] => False
  | c :: s' =>
      (is_ascii_alpha c = true \/ In c ext_initial \/ c = 58)
      \/ ((c = 43 \/ c = 45) /\ match s' with [] => True | c2 :: _ => sign_next_ok c2 = true end)
      \/ (127 < c /\ lead_ok c = true /\
          exists conts rest', s' = conts ++ rest' /\ length conts = cont_len c /\
            utf8_valid (c :: conts) = true /\ alpha (utf8_decode_head (c :: conts)) = true)
  end.

Fixpoint rt_ok (v : value) : Prop :=
  match v with
  | Nil | Null | Bool _ => True
  | Number (PosInt n) => n <= u64_MAX
  | Number (NegInt i) => (i64_min <= i < 0)%Z
  | Number (Float _) => False
  | Char c => is_scalar c = true
  | String s => utf8_valid s = true
  | Symbol s => plain_symbol s
  | Keyword s => no_terminator s /\ symbol_ok s
  | Bytes b => octets_ok b
  | Cons a d => rt_ok a /\ rt_ok d
  | Vector l => (fix all (l : list value) : Prop :=
                   match l with [] => True | x :: l' => rt_ok x /\ all l' end) l
  end.
Definition all_rt_ok : list value -> Prop :=
  fix all (l : list value) : Prop := match l with [] => True | x :: l' => rt_ok x /\ all l' end.
Lemma rt_ok_vector l : rt_ok (Vector l) = all_rt_ok l.
Proof. reflexivity. Qed.

  Definition pre_ok (pre : bytes) : Prop := trivia pre.

  Definition P (v : value) : Prop :=
    forall fuel r D pre rest, pre_ok pre -> rt_ok v -> N.of_nat (rdepth v) < D -> D <= 128 ->
      (length pre + length (txt v) + K <= fuel)%nat -> at_bytes r (pre ++ txt v ++ rest) -> delim_ok rest ->
      exists r', next_value fuel (mkp r D) = (POk (Some v), mkp r' D) /\ at_bytes r' rest /\ rk r' = rk r.

  Lemma P_reads v : P v -> rt_ok v -> reads (txt v) v (rdepth v).
  Proof. intros H Hok fuel r D pre rest Hpre. exact (H fuel r D pre rest Hpre Hok). Qed.
  Lemma reads_P v : (rt_ok v -> reads (txt v) v (rdepth v)) -> P v.
  Proof. intros H fuel r D pre rest Hpre Hok. exact (H Hok fuel r D pre rest Hpre). Qed.

  Lemma sym_first c s' : plain_symbol (c :: s') -> is_ws c = false /\ c <> 59 /\ is_closer c = false.
  Proof. clear fast std_parse.
    intros (_ & _ & [[Ha|[Hi| ->]]|[[[->| ->] _]|[Hhi _]]]).
    - unfold is_ascii_alpha, is_ascii_lower, is_ascii_upper, in_range in Ha.
      unfold is_ws, is_closer, memb. cbn [existsb]. repeat split; lia.
    - unfold ext_initial in Hi. cbn in Hi.
      repeat (destruct Hi as [<-|Hi]; [repeat split; try reflexivity; discriminate|]). contradiction.
    - repeat split; try reflexivity; discriminate.
    - repeat split; try reflexivity; discriminate.
    - repeat split; try reflexivity; discriminate.
    - unfold is_ws, is_closer, memb. cbn [existsb]. repeat split; lia.
  Qed.

  Lemma txt_head v : rt_ok v ->
    exists b t, txt v = b :: t /\ starts_datum b /\ is_closer b = false /\
                (b = 46 -> exists s, v = Symbol s).
  Proof. clear fast std_parse.
    intros Hok.
    assert (Hsimple : forall b t, txt v = b :: t -> is_ws b = false -> b <> 59 -> is_closer b = false -> b <> 46 ->
              exists b t, txt v = b :: t /\ starts_datum b /\ is_closer b = false /\ (b = 46 -> exists s, v = Symbol s)).
    { intros b t E H1 H2 H3 H4. exists b, t. repeat split; auto. intros; contradiction. }
    destruct v as [| |b|n|c|s|s|s|bs|a d|l].
    - eapply (Hsimple 35); try reflexivity; discriminate.
    - eapply (Hsimple 40); try reflexivity; discriminate.
    - destruct b; eapply (Hsimple 35); try reflexivity; discriminate.
    - destruct n as [n|i|f].
      + cbn [TextProofs.txt atom_text number_text]. destruct (dec_of_N_spec n) as (ds & E & Hne & Hd & _). rewrite E.
        destruct ds as [|d ds]; [contradiction|]. pose proof (Forall_inv Hd) as Hdig. cbv beta in Hdig.
        unfold is_digit, in_range in Hdig. exists d, ds. split; [reflexivity|].
        unfold starts_datum, is_ws, is_closer, memb. cbn [existsb]. repeat split; try lia.
      + cbn in Hok. destruct i as [|p|p]; try lia. eapply (Hsimple 45); try reflexivity; discriminate.
      + contradiction.
    - assert (E : exists t, txt (Char c) = 35 :: t)
        by (cbn [TextProofs.txt atom_text]; unfold char_text; destruct (_ && _); eexists; reflexivity).
      destruct E as [t E]. apply (Hsimple 35 t E); try reflexivity; discriminate.
    - eapply (Hsimple 34); try reflexivity; discriminate.
    - destruct s as [|c s']; [destruct Hok as (_ & _ & [])|].
      destruct (sym_first c s' Hok) as (H1 & H2 & H3). exists c, s'. repeat split; auto. intros _. eexists; reflexivity.
    - eapply (Hsimple 35); try reflexivity; discriminate.
    - eapply (Hsimple 35); try reflexivity; discriminate.
    - eapply (Hsimple 40); try reflexivity; discriminate.
    - eapply (Hsimple 35); try reflexivity; discriminate.
  Qed.

  Lemma P_nil : P Nil.
  Proof.
    apply reads_P. intros _.
    apply (reads_token (txt Nil) Nil 35 (s2b "nil") TNil eq_refl (starts_byte 35 eq_refl eq_refl) (fun _ => eq_refl)).
    intros f r rest _ _. exact (tok_nil alpha fast std_parse f r rest).
  Qed.

  Lemma P_bool b : P (Bool b).
  Proof.
    apply reads_P. intros _.
    apply (reads_token (txt (Bool b)) (Bool b) 35 (if b then [116] else [102]) (TBool b));
      [destruct b; reflexivity|exact (starts_byte 35 eq_refl eq_refl)|reflexivity|].
    intros f r rest _ _. destruct b; [exact (tok_bool alpha fast std_parse f r true rest)|exact (tok_bool alpha fast std_parse f r false rest)].
  Qed.

  Lemma P_keyword s : P (Keyword s).
  Proof.
    apply reads_P. intros [Hn Hsok].
    apply (reads_token (txt (Keyword s)) (Keyword s) 35 (58 :: s) (TKeyword s) eq_refl (starts_byte 35 eq_refl eq_refl) (fun _ => eq_refl)).
    intros f r rest Hf Hr.
    exact (tok_keyword alpha fast std_parse f r s rest ltac:(cbn in Hf; lia) Hn Hr Hsok).
  Qed.

  Lemma P_char c : P (Char c).
  Proof.
    apply reads_P. intros Hok.
    assert (E : exists t, char_text c = 35 :: t) by (unfold char_text; destruct (_ && _); eexists; reflexivity).
    destruct E as [t E].
    apply (reads_token (txt (Char c)) (Char c) 35 t (TChar c) E (starts_byte 35 eq_refl eq_refl) (fun _ => eq_refl)).
    intros f r rest Hf Hr.
    exact (tok_char alpha fast std_parse f r c rest Hok ltac:(change (txt (Char c)) with (char_text c) in Hf; lia) Hr).
  Qed.

  Lemma P_string s : P (String s).
  Proof.
    apply reads_P. intros Hok.
    apply (reads_token (txt (String s)) (String s) 34 _ (TString s) eq_refl (starts_byte 34 eq_refl eq_refl) (fun _ => eq_refl)).
    intros f r rest Hf _.
    exact (tok_string alpha fast std_parse f r s rest Hok ltac:(change (txt (String s)) with (str_text s) in Hf; lia)).
  Qed.

  Lemma P_number n : P (Number n).
  Proof.
    apply reads_P. destruct n as [n|i|fl]; cbn [rt_ok]; intros Hok; [| |contradiction].
    - destruct (dec_of_N_spec n) as (ds & E & Hne & Hd & _). destruct ds as [|d ds]; [contradiction|].
      apply (reads_token (txt (Number (PosInt n))) _ d ds (TNumber (PosInt n)) E
               (digit_starts_datum d (Forall_inv Hd)) (fun _ => eq_refl)).
      intros f r rest Hf Hr Ha _. change (txt (Number (PosInt n))) with (dec_of_N n) in *.
      destruct (tok_posint alpha fast std_parse f r n rest Hok ltac:(lia) Hr Ha) as (c & r1 & Ec & E1).
      rewrite E in Ec. injection Ec as <-. exists r1. exact E1.
    - destruct i as [|p|p]; try lia.
      apply (reads_token (txt (Number (NegInt (Z.neg p)))) _ 45 _ (TNumber (NegInt (Z.neg p))) eq_refl
               (starts_byte 45 eq_refl eq_refl) (fun _ => eq_refl)).
      intros f r rest Hf Hr. apply (tok_negint alpha fast std_parse f r (Z.neg p) rest Hok); [|exact Hr].
      change (Z.to_N (- Z.neg p)) with (N.pos p). cbn [TextProofs.txt atom_text number_text dec_of_Z length] in Hf. lia.
  Qed.

  Lemma P_bytes bs : P (Bytes bs).
  Proof.
    apply reads_P. intros Hok fuel r D pre rest Hpre HD HD' Hf Ha Hr.
    destruct fuel as [|f]; [unfold K in Hf; lia|]. unfold K in Hf.
    change (txt (Bytes bs)) with (35 :: 117 :: 56 :: 40 :: octets_text true bs ++ [41]) in *.
    cbn [app length] in Ha, Hf. rewrite app_length in Hf. cbn [length] in Hf.
    destruct (next_value_at alpha fast std_parse ro f r D pre 35 _ ltac:(lia) Hpre Ha (starts_byte 35 eq_refl eq_refl))
      as (r0 & Ha0 & Hp0 & Hk0 & Hnv).
    destruct (tok_bytevec alpha fast std_parse f r0 (40 :: (octets_text true bs ++ [41]) ++ rest) Ha0 Hp0) as (r1 & E1 & Ha1 & Hk1).
    rewrite (Hnv _ _ E1). cbn [after_token].
    rewrite <- app_assoc in Ha1. cbn [app] in Ha1.
    destruct (parse_byte_list_spec fast std_parse f r1 bs rest Hok ltac:(lia) Ha1) as (r2 & E2 & Ha2 & Hk2).
    rewrite (pbind_eq _ _ _ _ _ (liftR_ok _ r1 D _ _ E2)).
    exists r2. split; [reflexivity|]. split; [assumption|congruence].
  Qed.

  Lemma P_symbol s : P (Symbol s).
  Proof.
    apply reads_P. intros Hok. destruct s as [|c s']; [destruct Hok as (_ & _ & [])|].
    destruct (sym_first c s' Hok) as (W1 & W2 & _). destruct Hok as (Hn & Hsok & Hfirst).
    apply (reads_token (txt (Symbol (c :: s'))) _ c s' (TSymbol (c :: s')) eq_refl (conj W1 W2) (fun _ => eq_refl)).
    intros f r rest Hf Hr Ha Hp. cbn [TextProofs.txt atom_text length app] in Hf, Ha.
    destruct Hfirst as [Hc|[[Hc Hnext]|(Hhi & Hlead & conts & rest' & -> & Hlen & Hv & Hal)]].
    - exact (tok_symbol_direct alpha fast std_parse f r c s' rest Hc ltac:(cbn [length]; lia) Hn
               Hr Hsok Ha).
    - exact (tok_symbol_sign alpha fast std_parse f r c s' rest Hc Hnext ltac:(cbn [length]; lia) Hn Hr Hsok Ha Hp).
    - assert (Hn' : no_terminator rest').
      { inversion Hn as [|? ? _ Hn1]; subst. apply Forall_app in Hn1. apply Hn1. }
      rewrite <- app_assoc in Ha. rewrite app_length in Hf.
      exact (tok_symbol_nonascii alpha fast std_parse f r c conts rest' rest Hhi Hlead Hlen Hv Hal
               ltac:(lia) Hn' Hr Hsok Ha Hp).
  Qed.

  Lemma symbol_value_default name : symbol_value ro name = Symbol name.
  Proof. reflexivity. Qed.

  Lemma elem_step a : P a -> forall f r D acc pre more, pre_ok pre -> rt_ok a -> N.of_nat (rdepth a) < D -> D <= 128 ->
    (length pre + length (txt a) + K <= f)%nat -> at_bytes r (pre ++ txt a ++ more) -> delim_ok more ->
    exists r1, parse_list (S f) 41 acc (mkp r D) = parse_list f 41 (acc ++ [a]) (mkp r1 D) /\
               at_bytes r1 more /\ rk r1 = rk r.
  Proof.
    intros HP f r D acc pre more Hpre Hok HD HD'.
    destruct (txt_head a Hok) as (b & t & E & Hst & Hcl & H46).
    destruct (N.eq_dec b 46) as [->|Hne].
    - destruct (H46 eq_refl) as [s ->]. change (txt (Symbol s)) with s in *. subst s.
      destruct Hok as (Hn & Hsok & _).
      exact (list_dot_symbol alpha fast std_parse ro 41 t Hn Hsok f r D acc pre more Hpre).
    - exact (list_item alpha fast std_parse ro 41 (txt a) a (rdepth a) b t (P_reads a HP Hok) E Hst Hcl Hne
               f r D acc pre more Hpre HD HD').
  Qed.

  Lemma txt_nonempty a : rt_ok a -> (1 <= length (txt a))%nat.
  Proof. clear fast std_parse. intros H. destruct (txt_head a H) as (b & t & E & _). rewrite E. cbn [length]. lia. Qed.

  Definition body_text (first : bool) (d : value) : bytes :=
    if first then match d with Cons a d' => txt a ++ txt_tail d' | _ => [] end else txt_tail d.

  Definition Tl (first : bool) (d : value) : Prop :=
    rt_ok d -> reads_list 41 (body_text first d) d (rdepth_rest d) (negb (is_cons d || is_null d)).

  Lemma Tl_null first : Tl first Null.
  Proof.
    intros _. replace (body_text first Null) with (@nil N) by (destruct first; reflexivity).
    apply list_end; [left; reflexivity|constructor].
  Qed.

  Lemma Tl_cons first a d' : P a -> Tl false d' -> Tl first (Cons a d').
  Proof.
    intros HPa HT [Hoka Hokd].
    replace (body_text first (Cons a d')) with ((if first then [] else [32]) ++ txt a ++ txt_tail d')
      by (destruct first; reflexivity).
    apply (list_cons alpha fast std_parse ro 41 _ (txt a) a (rdepth a) (txt_tail d') d' (rdepth_rest d') false
             (negb (is_cons d' || is_null d'))).
    - intros f r D acc pre more Hpre. exact (elem_step a HPa f r D acc pre more Hpre Hoka).
    - exact (txt_nonempty a Hoka).
    - destruct first; [constructor|exact trivia_space].
    - intros rest. destruct d'; reflexivity.
    - exact (HT Hokd).
  Qed.

  Lemma Tl_dot d : P d -> is_cons d = false -> is_null d = false -> Tl false d.
  Proof.
    intros HPd Hc Hn Hok. rewrite Hc, Hn. replace (rdepth_rest d) with (rdepth d) by (destruct d; try discriminate; reflexivity).
    replace (body_text false d) with ([32] ++ 46 :: [32] ++ txt d ++ [])
      by (rewrite app_nil_r; symmetry; exact (txt_tail_noncons ryu d Hc Hn)).
    apply list_dot; [left; reflexivity|exact (P_reads d HPd Hok)|exact (txt_nonempty d Hok)|exact trivia_space|exact trivia_space|reflexivity|constructor].
  Qed.

  Lemma list_wrap v : is_cons v = true \/ is_null v = true -> Tl true v -> P v.
  Proof.
    intros Hshape HT. apply reads_P. intros Hok. specialize (HT Hok).
    replace (txt v) with (40 :: [] ++ body_text true v ++ [41]).
    2:{ destruct v; destruct Hshape as [Hs|Hs]; try discriminate Hs; [reflexivity|].
        rewrite txt_cons. unfold body_text. cbn [app]. now rewrite <- app_assoc. }
    destruct v; destruct Hshape as [Hs|Hs]; try discriminate Hs;
      exact (list_seq alpha fast std_parse ro 41 40 [] _ _ _ (or_introl eq_refl) (starts_byte 40 eq_refl eq_refl) (tok_listopen alpha fast std_parse) HT).
  Qed.

  Lemma Vl l : Forall P l -> forall first, all_rt_ok l ->
    reads_vector 41 (vec_elems first l) l (list_max (map rdepth l)).
  Proof.
    induction 1 as [|x l HPx _ IH]; intros first Hok.
    - apply vector_end; [left; reflexivity|constructor].
    - destruct Hok as [Hokx Hokl]. destruct (txt_head x Hokx) as (b & t & E & Hst & Hcl & _).
      apply (vector_cons alpha fast std_parse ro 41 (if first then [] else [32]) (txt x) x (rdepth x) b t (vec_elems false l) l _
               (P_reads x HPx Hokx) E Hst Hcl).
      + destruct first; [constructor|exact trivia_space].
      + intros rest. destruct l; reflexivity.
      + exact (IH false Hokl).
  Qed.

  Lemma P_vector l : Forall P l -> P (Vector l).
  Proof.
    intros HPl. apply reads_P. intros Hok.
    exact (vector_seq alpha fast std_parse ro 41 35 [40] (vec_elems true l) l _ (or_introl eq_refl) (starts_byte 35 eq_refl eq_refl)
             (tok_vecopen alpha fast std_parse) (Vl l HPl true Hok)).
  Qed.

  Theorem next_value_reads_text v : P v /\ Tl false v.
  Proof.
    induction v as [| |b|n|c|s|s|s|bs|a d [IHa _] [_ IHd]|l H] using value_ind'.
    - split; [apply P_nil|apply Tl_dot; [apply P_nil|reflexivity|reflexivity]].
    - split; [apply list_wrap; [right; reflexivity|apply Tl_null]|apply Tl_null].
    - split; [apply P_bool|apply Tl_dot; [apply P_bool|reflexivity|reflexivity]].
    - split; [apply P_number|apply Tl_dot; [apply P_number|reflexivity|reflexivity]].
    - split; [apply P_char|apply Tl_dot; [apply P_char|reflexivity|reflexivity]].
    - split; [apply P_string|apply Tl_dot; [apply P_string|reflexivity|reflexivity]].
    - split; [apply P_symbol|apply Tl_dot; [apply P_symbol|reflexivity|reflexivity]].
    - split; [apply P_keyword|apply Tl_dot; [apply P_keyword|reflexivity|reflexivity]].
    - split; [apply P_bytes|apply Tl_dot; [apply P_bytes|reflexivity|reflexivity]].
    - split; [apply list_wrap; [left; reflexivity|]|]; apply Tl_cons; assumption.
    - assert (HPl : Forall P l) by (eapply Forall_impl; [|exact H]; intros x [Hx _]; exact Hx).
      split; [apply P_vector; exact HPl|apply Tl_dot; [apply P_vector; exact HPl|reflexivity|reflexivity]].
  Qed.

  Theorem roundtrip_from_trait k v : rt_ok v -> (rdepth v <= 127)%nat ->
    from_trait ro alpha fast std_parse k (bytes_events (txt v)) = POk v.
  Proof.
    intros Hok Hd. rewrite <- (app_nil_r (txt v)).
    exact (from_trait_reads alpha fast std_parse ro (txt v) v (rdepth v) k [] []
             (P_reads v (proj1 (next_value_reads_text v)) Hok) Hd tv_nil (te_trivia [] tv_nil)).
  Qed.

  Fixpoint more_txt (vs : list value) : bytes :=
    match vs with [] => [] | v :: vs' => 32 :: txt v ++ more_txt vs' end.
  Definition seq_txt (vs : list value) : bytes :=
    match vs with [] => [] | v :: vs' => txt v ++ more_txt vs' end.

  Lemma more_txt_delim vs : delim_ok (more_txt vs).
  Proof. destruct vs; [exact I|reflexivity]. Qed.

  Lemma iterate_more vs : forall fuel n r D,
    Forall (fun v => rt_ok v /\ N.of_nat (rdepth v) < D) vs -> D <= 128 ->
    (length (more_txt vs) + K + 1 <= fuel)%nat -> (length vs < n)%nat -> at_bytes r (more_txt vs) ->
    iterate_values ro alpha fast std_parse fuel n (mkp r D) = map (fun v => POk v) vs.
  Proof.
    induction vs as [|v vs IH]; intros fuel n r D Hall HD Hf Hn Ha; (destruct n as [|n]; [cbn in Hn; lia|]); cbn [iterate_values].
    - apply (iterate_end alpha fast std_parse ro []); [constructor; constructor|unfold K in Hf; cbn [more_txt length] in *; lia|exact Ha].
    - inversion Hall as [|? ? [Hok Hd] Hall']; subst. cbn [more_txt] in Ha, Hf. cbn [length] in Hf. rewrite app_length in Hf.
      change (32 :: txt v ++ more_txt vs) with ([32] ++ txt v ++ more_txt vs) in Ha.
      destruct (proj1 (next_value_reads_text v) fuel r D [32] (more_txt vs) trivia_space Hok Hd HD
                  ltac:(cbn [length]; lia) Ha (more_txt_delim vs)) as (r1 & E1 & Ha1 & _).
      rewrite E1. cbn [map]. f_equal. apply IH; auto; try lia. cbn [length] in Hn. lia.
  Qed.

  Theorem iterate_sequence vs fuel n r D :
    Forall (fun v => rt_ok v /\ N.of_nat (rdepth v) < D) vs -> D <= 128 ->
    (length (seq_txt vs) + K + 1 <= fuel)%nat -> (length vs < n)%nat -> at_bytes r (seq_txt vs) ->
    iterate_values ro alpha fast std_parse fuel n (mkp r D) = map (fun v => POk v) vs.
  Proof.
    intros Hall HD Hf Hn Ha. destruct vs as [|v vs].
    - apply (iterate_more [] fuel n r D); auto.
    - destruct n as [|n]; [cbn in Hn; lia|]. cbn [iterate_values]. cbn [seq_txt] in Ha, Hf. rewrite app_length in Hf.
      inversion Hall as [|? ? [Hok Hd] Hall']; subst.
      change (txt v ++ more_txt vs) with ([] ++ txt v ++ more_txt vs) in Ha.
      destruct (proj1 (next_value_reads_text v) fuel r D [] (more_txt vs) tv_nil Hok Hd HD
                  ltac:(cbn [length]; lia) Ha (more_txt_delim vs)) as (r1 & E1 & Ha1 & _).
      rewrite E1. cbn [map]. f_equal. apply iterate_more; auto; try lia. cbn [length] in Hn. lia.
  Qed.

End Roundtrip.
