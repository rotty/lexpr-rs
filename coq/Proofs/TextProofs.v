(* The text the default printer emits, as a plain recursive function. *)
Require Import Base Value PrintOptions Printer PrinterProofs.

Lemma flatten_esc_any F frag s : (forall f, write_string_fragment F f = wall f) ->
  flatten (esc_contents F frag s) =
  rev frag ++ flat_map (fun b => match escape_of b with None => [b] | Some e => flatten (write_char_escape F e) end) s.
Proof.
  intros HF. revert frag; induction s as [|b s IH]; intros frag; cbn [esc_contents flat_map].
  - destruct frag; [reflexivity|]. rewrite HF, flatten_wall. now rewrite app_nil_r.
  - destruct (escape_of b) as [e|] eqn:E.
    + rewrite !flatten_app, IH. cbn [rev app]. destruct frag; [reflexivity|].
      rewrite HF, flatten_wall, <- ?app_assoc. reflexivity.
    + rewrite IH. cbn [rev]. rewrite <- ?app_assoc. reflexivity.
Qed.

Section Text.
  Variable ryu : f64 -> bytes.

  (* format_escaped_str_contents, flattened *)
  Definition esc_bytes (b : N) : bytes :=
    match escape_of b with
    | None => [b]
    | Some e => flatten (write_r6rs_char_escape e)
    end.
  Definition str_text (s : bytes) : bytes := [34] ++ flat_map esc_bytes s ++ [34].

  Definition char_text (c : N) : bytes :=
    if (32 <=? c) && (c <? 127) then [35; 92; c] else [35; 92; 120] ++ hex_of_N c.

  Fixpoint octets_text (first : bool) (l : bytes) : bytes :=
    match l with
    | [] => []
    | o :: l' => (if first then [] else [32]) ++ dec_of_N o ++ octets_text false l'
    end.

  Definition number_text (n : number) : bytes :=
    match n with
    | PosInt u => dec_of_N u
    | NegInt i => dec_of_Z i
    | Float f => ryu f
    end.

  Definition atom_text (v : value) : bytes :=
    match v with
    | Nil => s2b "#nil"
    | Null => s2b "()"
    | Bool b => if b then s2b "#t" else s2b "#f"
    | Number n => number_text n
    | Char c => char_text c
    | Symbol s => s
    | Keyword s => s2b "#:" ++ s
    | String s => str_text s
    | Bytes b => s2b "#u8(" ++ octets_text true b ++ [41]
    | Cons _ _ | Vector _ => []
    end.

  Fixpoint txt (v : value) : bytes :=
    match v with
    | Cons a d => [40] ++ txt a ++ txt_tail d ++ [41]
    | Vector l =>
        s2b "#(" ++ (fix elems (first : bool) (l : list value) : bytes :=
                       match l with
                       | [] => []
                       | x :: l' => (if first then [] else [32]) ++ txt x ++ elems false l'
                       end) true l ++ [41]
    | _ => atom_text v
    end
  with txt_tail (d : value) : bytes :=
    match d with
    | Null => []
    | Cons a d' => [32] ++ txt a ++ txt_tail d'
    | Vector l =>
        [32; 46; 32] ++ (s2b "#(" ++ (fix elems (first : bool) (l : list value) : bytes :=
                                        match l with
                                        | [] => []
                                        | x :: l' => (if first then [] else [32]) ++ txt x ++ elems false l'
                                        end) true l ++ [41])
    | _ => [32; 46; 32] ++ atom_text d
    end.

  Definition vec_elems : bool -> list value -> bytes :=
    fix elems (first : bool) (l : list value) : bytes :=
      match l with
      | [] => []
      | x :: l' => (if first then [] else [32]) ++ txt x ++ elems false l'
      end.

  Lemma txt_vector l : txt (Vector l) = s2b "#(" ++ vec_elems true l ++ [41].
  Proof. reflexivity. Qed.
  Lemma txt_tail_noncons d : is_cons d = false -> is_null d = false -> txt_tail d = [32; 46; 32] ++ txt d.
  Proof. destruct d; try discriminate; reflexivity. Qed.

  Lemma print_cons F a d :
    print F (Cons a d) = begin_list F ++ begin_seq_element F true ++ print F a ++ end_seq_element F
                           ++ print_tail F d ++ end_list F.
  Proof. reflexivity. Qed.
  Lemma print_tail_cons F a d :
    print_tail F (Cons a d) = begin_seq_element F false ++ print F a ++ end_seq_element F ++ print_tail F d.
  Proof. reflexivity. Qed.
  Lemma txt_cons a d : txt (Cons a d) = [40] ++ txt a ++ txt_tail d ++ [41].
  Proof. reflexivity. Qed.
  Lemma txt_tail_cons a d : txt_tail (Cons a d) = [32] ++ txt a ++ txt_tail d.
  Proof. reflexivity. Qed.

  Lemma flatten_esc frag s :
    flatten (esc_contents (default_fmt ryu) frag s) = rev frag ++ flat_map esc_bytes s.
  Proof. exact (flatten_esc_any (default_fmt ryu) frag s (fun _ => eq_refl)). Qed.

  Lemma flatten_octets first l :
    flatten (octets d_begin_seq_element [] first l) = octets_text first l.
  Proof.
    revert first; induction l as [|o l IH]; intros first; cbn [octets octets_text]; [reflexivity|].
    rewrite !flatten_app, flatten_wall, IH. destruct first; reflexivity.
  Qed.

  Lemma flatten_atom v : is_cons v = false -> (forall l, v <> Vector l) ->
    flatten (print_atom (default_fmt ryu) v) = atom_text v.
  Proof.
    intros Hc Hv.
    destruct v as [| |b|n|c|s|s|s|bs|a d|l]; try discriminate;
      cbn [print_atom default_fmt write_nil write_null write_bool write_number write_char write_symbol
           write_keyword write_bytes atom_text].
    - now rewrite flatten_wall.
    - now rewrite flatten_wall.
    - destruct b; now rewrite flatten_wall.
    - destruct n; cbn [d_write_number number_text]; now rewrite flatten_wall.
    - unfold write_scheme_char, char_text. destruct (_ && _); rewrite ?flatten_app, ?flatten_wall; reflexivity.
    - unfold format_escaped_str, str_text. cbn [default_fmt begin_string end_string].
      rewrite !flatten_app, !flatten_wall, flatten_esc. reflexivity.
    - now rewrite flatten_wall.
    - rewrite flatten_app, !flatten_wall. reflexivity.
    - rewrite !flatten_app, flatten_octets. unfold d_begin_vector. rewrite !flatten_wall. reflexivity.
    - exfalso. eapply Hv. reflexivity.
  Qed.

  Lemma print0_txt_both v :
    flatten (print (default_fmt ryu) v) = txt v /\ flatten (print_tail (default_fmt ryu) v) = txt_tail v.
  Proof.
    assert (Htail : forall d, is_cons d = false -> is_null d = false -> (forall l, d <> Vector l) ->
              flatten (print_tail (default_fmt ryu) d) = [32; 46; 32] ++ atom_text d).
    { intros d Hc Hn Hv. rewrite <- (flatten_atom d Hc Hv).
      destruct d; try discriminate; try (exfalso; eapply Hv; reflexivity);
        cbn [print_tail]; unfold dot_seq;
        cbn [default_fmt begin_seq_element write_dot end_seq_element d_begin_seq_element];
        rewrite ?flatten_app, ?flatten_wall, ?flatten_nil, ?app_nil_r; reflexivity. }
    induction v as [| |b|n|c|s|s|s|b|a d [IHa _] [IHd1 IHd2]|l H] using value_ind';
      try (split; [apply flatten_atom; [reflexivity|intros; discriminate]
                  |first [reflexivity | apply Htail; [reflexivity|reflexivity|intros; discriminate]]]).
    - split; rewrite ?print_cons, ?print_tail_cons, ?txt_cons, ?txt_tail_cons;
        cbn [default_fmt begin_list end_list begin_seq_element end_seq_element d_begin_seq_element];
        rewrite !flatten_app, !flatten_wall, ?flatten_nil, IHa, IHd2; cbn [app]; reflexivity.
    - assert (He : forall first,
                 flatten ((fix elems (first : bool) (l : list value) : trace :=
                             match l with
                             | [] => []
                             | x :: l' => begin_seq_element (default_fmt ryu) first ++ print (default_fmt ryu) x
                                            ++ end_seq_element (default_fmt ryu) ++ elems false l'
                             end) first l) = vec_elems first l).
      { induction H as [|x l [Hx _] _ IH]; intros first; [reflexivity|].
        cbn [vec_elems]. rewrite !flatten_app, Hx, IH.
        cbn [default_fmt begin_seq_element end_seq_element d_begin_seq_element]. destruct first; rewrite ?flatten_wall, ?flatten_nil; reflexivity. }
      split.
      + cbn [print]. rewrite txt_vector, !flatten_app, He. cbn [default_fmt begin_vector end_vector d_begin_vector].
        now rewrite !flatten_wall.
      + cbn [print_tail]. change (txt_tail (Vector l)) with ([32; 46; 32] ++ txt (Vector l)). rewrite txt_vector.
        unfold dot_seq. rewrite !flatten_app, He.
        cbn [default_fmt begin_seq_element write_dot end_seq_element begin_vector end_vector d_begin_vector d_begin_seq_element].
        rewrite !flatten_wall, ?flatten_nil, ?app_nil_r. reflexivity.
  Qed.

  Theorem print0_is_txt v : print0 ryu v = txt v.
  Proof. unfold print0, trace0. apply print0_txt_both. Qed.
End Text.
