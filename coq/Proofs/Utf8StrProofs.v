(* C17 / C13 for &str input: StrRead skips the UTF-8 check of scanned symbols
   and strings (from_utf8_unchecked), relying on its input being a str. That
   reliance is justified: when the whole input is well-formed UTF-8, every
   symbol, keyword and string the parser builds from it is well-formed too. *)
From Coq Require Import SpecFloat Lia ZifyBool ZifyNat ZifyN.
Require Import Base Value Float PrintOptions ParseOptions Utf8 Reader Scan Num NumberOps Parser.
Require Import RelFramework PositionProofs Utf8Proofs Utf8PrintProofs DepthBoundProofs Utf8ParseProofs SpanProofs.

(* char::encode_utf8 of a scalar value is well-formed *)
Lemma utf8_encode_valid n : is_scalar n = true -> utf8_valid (utf8_encode n) = true.
Proof.
  intros H. rewrite <- (app_nil_r (utf8_encode n)). apply valid_iff_seqs.
  assert (Hu : useq (utf8_encode n)).
  { unfold is_scalar, utf8_encode in *. destruct (n <? 128) eqn:E1; [|destruct (n <? 2048) eqn:E2; [|destruct (n <? 65536) eqn:E3]];
      constructor; unfold is_cont, in_range; lia. }
  constructor; [apply useq_wf, Hu|apply useq_shape, Hu|constructor].
Qed.

(* every event of a str input is a byte *)
Definition is_byte (e : event) : Prop := match e with EByte _ => True | _ => False end.
Definition all_bytes (l : list event) : Prop := Forall is_byte l.
Definition Rab (r : reader) (x : option perr) (r' : reader) : Prop := all_bytes (rinput r) -> all_bytes (rinput r').

Lemma Rab_ret r : Rab r None r.  Proof. intros H; exact H. Qed.
Lemma Rab_seq r r1 x r2 : Rab r None r1 -> Rab r1 x r2 -> Rab r x r2.
Proof. unfold Rab. auto. Qed.
Lemma Rab_fuel r : Rab r (Some EFuel) r.  Proof. intros H; exact H. Qed.
Lemma Rab_rec1 r e r1 x r2 : Rab r (Some e) r1 -> Rab r1 x r2 -> Rab r (Some e) r2.
Proof. unfold Rab. auto. Qed.
Lemma Rab_rec2 r e r1 e' r2 : Rab r (Some e) r1 -> Rab r1 (Some e') r2 -> Rab r (Some e') r2.
Proof. unfold Rab. auto. Qed.

Lemma skip_intr_bytes l : all_bytes l -> skip_intr l = l.
Proof. intros H. destruct l as [|[b| |e] l]; try reflexivity. inversion H as [|? ? Hx _]. contradiction. Qed.
Lemma all_bytes_tl e l : all_bytes (e :: l) -> all_bytes l.
Proof. intros H. inversion H; assumption. Qed.

Lemma ab_peek : sat Rab peek.
Proof.
  intros r. unfold peek, r_peek, R, Rab. destruct (rpending r).
  - destruct (rinput r) as [|[b| |e] l] eqn:El; cbn [fst snd]; rewrite ?El; auto.
  - intros H. rewrite (skip_intr_bytes _ H). destruct (rinput r) as [|[b| |e] l] eqn:El; cbn [fst snd rinput]; rewrite ?El; auto.
    apply all_bytes_tl in H. exact H.
Qed.
Lemma ab_next : sat Rab next_char.
Proof.
  intros r. unfold next_char, r_next, R, Rab. intros H.
  assert (E : (if rpending r then rinput r else skip_intr (rinput r)) = rinput r) by (destruct (rpending r); [reflexivity|apply skip_intr_bytes; exact H]).
  rewrite E. destruct (rinput r) as [|[b| |e] l] eqn:El; cbn [fst snd rinput].
  - constructor.
  - rewrite consume_input. apply all_bytes_tl in H. exact H.
  - rewrite El. exact H.
  - apply all_bytes_tl in H. exact H.
Qed.
Lemma discard_ab r : all_bytes (rinput r) -> all_bytes (rinput (r_discard r)).
Proof.
  intros H. unfold r_discard. destruct (rk r); try destruct (rpending r); try exact H;
    destruct (rinput r) as [|[b| |e] l] eqn:El; rewrite ?El; try exact H; rewrite consume_input; apply all_bytes_tl in H; exact H.
Qed.
Lemma ab_eat : sat Rab eat_char.
Proof. intros r. unfold eat_char, R, Rab. cbn [fst snd]. apply discard_ab. Qed.
Lemma ab_error A c : sat Rab (@error A c).
Proof. intros r. unfold error, R, Rab. destruct (r_position r). auto. Qed.
Lemma ab_peek_error A c : sat Rab (@peek_error A c).
Proof. intros r. unfold peek_error, R, Rab. destruct (r_peek_position r). auto. Qed.
Lemma ab_error_consume A c : sat Rab (@error_consume A c).
Proof. intros r. unfold error_consume, peek_error, R, Rab. destruct (r_peek_position r). cbn [fst snd]. apply discard_ab. Qed.

Lemma span_plain_suffix l : forall acc, exists p, l = p ++ snd (span_plain l acc).
Proof.
  induction l as [|[b| |e] l IH]; intros acc; cbn [span_plain]; try (exists []; reflexivity).
  destruct ((b =? 92) || (b =? 34)); [exists []; reflexivity|]. destruct (IH (acc ++ [b])) as [p E]. exists (EByte b :: p). cbn [app]. congruence.
Qed.
Lemma span_symbol_suffix l : forall acc, exists p, l = p ++ snd (span_symbol l acc).
Proof.
  induction l as [|[b| |e] l IH]; intros acc; cbn [span_symbol]; try (exists []; reflexivity).
  destruct (is_symbol_terminator b); [exists []; reflexivity|]. destruct (IH (acc ++ [b])) as [p E]. exists (EByte b :: p). cbn [app]. congruence.
Qed.
Lemma all_bytes_suffix p l : all_bytes (p ++ l) -> all_bytes l.
Proof. intros H. apply Forall_app in H. apply H. Qed.

Lemma ab_take_run : sat Rab take_run.
Proof.
  intros r. unfold take_run, R, Rab. intros H. destruct (span_plain_suffix (rinput r) []) as [p E].
  destruct (span_plain (rinput r) []) as [run rest]. cbn [snd] in E. rewrite E in H. apply all_bytes_suffix in H.
  destruct rest as [|[b| |e] rest']; cbn [fst snd]; rewrite ?consume_input, ?advance_over_input; auto.
  apply all_bytes_tl in H. exact H.
Qed.
Lemma ab_take_symbol : sat Rab take_symbol_run.
Proof.
  intros r. unfold take_symbol_run, R, Rab. intros H. destruct (span_symbol_suffix (rinput r) []) as [p E].
  destruct (span_symbol (rinput r) []) as [run rest]. cbn [fst snd] in *. rewrite advance_over_input. rewrite E in H.
  apply all_bytes_suffix in H. exact H.
Qed.

Section StrInput.
  Variable W : bytes.
  Hypothesis HW : utf8_valid W = true.

  Definition rem (r : reader) : bytes := bytes_in (rinput r).
  Definition okr (r : reader) : Prop := inv W r /\ rk r = SrcStr /\ all_bytes (rinput r).
  Definition bnd (r : reader) : Prop := boundary_head (rem r).

  Lemma rem_valid r : okr r -> bnd r -> utf8_valid (rem r) = true.
  Proof. intros ((c & E & _) & _) Hb. pose proof HW as H. rewrite E in H. apply (utf8_valid_split c _ H Hb). Qed.
  Lemma after_ascii r c t : okr r -> rem r = c :: t -> c < 128 -> utf8_valid t = true.
  Proof. intros ((p & E & _) & _) Er Hc. pose proof HW as H. rewrite E in H. unfold rem in Er. rewrite Er in H. apply (utf8_valid_after_ascii p c t H Hc). Qed.

  Definition covered {A} (m : M A) : Prop := sat (Rpos W) m /\ sat Rrk m /\ sat Rab m.
  Lemma okr_step {A} (m : M A) r : covered m -> okr r -> okr (snd (m r)).
  Proof.
    intros (H1 & H2 & H3) (Hi & Hk & Ha). specialize (H1 r). specialize (H2 r). specialize (H3 r).
    unfold R, Rpos, Rrk, Rab in *. destruct (H1 Hi) as [Hi' _]. repeat split; auto. congruence.
  Qed.

  Definition hs {A} (pre : reader -> Prop) (m : M A) (post : A -> reader -> Prop) : Prop :=
    forall r, okr r -> pre r -> match m r with (Ok a, r') => okr r' /\ post a r' | (Err _, _) => True end.

  Lemma hs_bind {A B} pre (m : M A) (f : A -> M B) mid post :
    hs pre m mid -> (forall a, hs (mid a) (f a) post) -> hs pre (bind m f) post.
  Proof.
    intros Hm Hf r Ho Hp. unfold bind. specialize (Hm r Ho Hp). destruct (m r) as [[a|e] r1]; [|exact I].
    destruct Hm as [Ho1 Hmid]. apply (Hf a r1 Ho1 Hmid).
  Qed.
  Lemma hs_ret {A} (pre : reader -> Prop) (a : A) (post : A -> reader -> Prop) : (forall r, pre r -> post a r) -> hs pre (ret a) post.
  Proof. intros H r Ho Hp. cbn. auto. Qed.
  Lemma hs_err {A} pre c (post : A -> reader -> Prop) : hs pre (error c) post /\ hs pre (peek_error c) post.
  Proof. split; intros r _ _; [unfold error; destruct (r_position r)|unfold peek_error; destruct (r_peek_position r)]; exact I. Qed.
  Lemma hs_weaken {A} (pre pre' : reader -> Prop) (m : M A) (post post' : A -> reader -> Prop) :
    (forall r, pre' r -> pre r) -> (forall a r, post a r -> post' a r) -> hs pre m post -> hs pre' m post'.
  Proof. intros H1 H2 H r Ho Hp. specialize (H r Ho (H1 r Hp)). destruct (m r) as [[a|e] r1]; [|exact I]. destruct H. auto. Qed.
  Lemma hs_any {A} pre (m : M A) : covered m -> hs pre m (fun _ _ => True).
  Proof. intros Hc r Ho _. pose proof (okr_step m r Hc Ho) as H. destruct (m r) as [[a|e] r1]; [|exact I]. auto. Qed.
  Lemma hs_frame {A} (P : Prop) pre (m : M A) post : hs pre m post -> hs (fun r => P /\ pre r) m (fun a r => P /\ post a r).
  Proof. intros H r Ho [HP Hp]. specialize (H r Ho Hp). destruct (m r) as [[a|e] r1]; [|exact I]. tauto. Qed.
  Lemma hs_pure_pre {A} (P : Prop) pre (m : M A) post : (P -> hs pre m post) -> hs (fun r => P /\ pre r) m post.
  Proof. intros H r Ho [HP Hp]. exact (H HP r Ho Hp). Qed.
  Lemma hs_and {A} pre (m : M A) p q : hs pre m p -> hs pre m q -> hs pre m (fun a r => p a r /\ q a r).
  Proof. intros H1 H2 r Ho Hp. specialize (H1 r Ho Hp). specialize (H2 r Ho Hp). destruct (m r) as [[a|e] r1]; [|exact I]. tauto. Qed.

  Ltac pos_prims := first [exact (Rpos_ret W) | exact (Rpos_seq W) | exact (Rpos_fuel W) | exact (Rpos_rec1 W) | exact (Rpos_rec2 W)
    | exact (sat_peek_pos W) | exact (sat_next_pos W) | exact (sat_eat_pos W) | exact (sat_error_pos W) | exact (sat_peek_error_pos W)
    | exact (sat_error_consume_pos W) | exact (sat_take_run_pos W) | exact (sat_take_symbol_pos W)].
  Ltac ab_prims := first [exact Rab_ret | exact Rab_seq | exact Rab_fuel | exact Rab_rec1 | exact Rab_rec2 | exact ab_peek | exact ab_next
    | exact ab_eat | exact ab_error | exact ab_peek_error | exact ab_error_consume | exact ab_take_run | exact ab_take_symbol].
  (* covered m, for a model function whose generic lemma is [lem] *)
  Ltac cov lem := split; [|split]; [apply (lem (Rpos W)); pos_prims | apply (lem Rrk); rk_prim | apply (lem Rab); ab_prims].

  Lemma cov_next : covered next_char.
  Proof. split; [exact (sat_next_pos W)|split; [exact rk_next|exact ab_next]]. Qed.
  Lemma cov_peek : covered peek.
  Proof. split; [exact (sat_peek_pos W)|split; [exact rk_peek|exact ab_peek]]. Qed.
  Lemma cov_eat : covered eat_char.
  Proof. split; [exact (sat_eat_pos W)|split; [exact rk_eat|exact ab_eat]]. Qed.
  Lemma cov_take_run : covered take_run.
  Proof. split; [exact (sat_take_run_pos W)|split; [exact rk_take_run|exact ab_take_run]]. Qed.
  Lemma cov_take_symbol : covered take_symbol_run.
  Proof. split; [exact (sat_take_symbol_pos W)|split; [exact rk_take_symbol|exact ab_take_symbol]]. Qed.

  Lemma next_rem r c r' : okr r -> next_char r = (Ok (Some c), r') -> rem r = c :: rem r'.
  Proof.
    intros (_ & _ & Ha) E. unfold next_char, r_next in E.
    assert (Es : (if rpending r then rinput r else skip_intr (rinput r)) = rinput r) by (destruct (rpending r); [reflexivity|apply skip_intr_bytes; exact Ha]).
    rewrite Es in E. unfold rem. destruct (rinput r) as [|[b| |e] l]; inversion E; subst. rewrite consume_input. reflexivity.
  Qed.
  Lemma eat_rem r b : at_byte b r -> rem r = b :: rem (r_discard r).
  Proof.
    intros [Hp [l Hl]]. unfold rem, r_discard. rewrite Hp, Hl. destruct (rk r); rewrite consume_input; reflexivity.
  Qed.
  Lemma at_byte_rem r b : at_byte b r -> exists t, rem r = b :: t.
  Proof. intros [_ [l Hl]]. unfold rem. rewrite Hl. eexists; reflexivity. Qed.
  Lemma at_ascii_bnd r b : at_byte b r -> b < 128 -> bnd r.
  Proof. intros H Hb. destruct (at_byte_rem r b H) as [t E]. unfold bnd. rewrite E. apply ascii_boundary. exact Hb. Qed.

  Lemma hs_next_ascii pre : hs pre next_char (fun o r' => match o with Some c => c < 128 -> bnd r' | None => True end).
  Proof.
    intros r Ho _. pose proof (okr_step next_char r cov_next Ho) as Ho'. destruct (next_char r) as [[[c|]|e] r'] eqn:E; try exact I; cbn [snd] in Ho'; split; auto.
    intros Hc. apply valid_boundary. apply (after_ascii r c (rem r') Ho (next_rem r c r' Ho E) Hc).
  Qed.
  Lemma hs_eat_ascii b : b < 128 -> hs (at_byte b) eat_char (fun _ r' => bnd r').
  Proof.
    intros Hb r Ho Hat. pose proof (okr_step eat_char r cov_eat Ho) as Ho'. unfold eat_char in *. cbn [snd] in *. split; [exact Ho'|].
    apply valid_boundary. apply (after_ascii r b _ Ho (eat_rem r b Hat) Hb).
  Qed.

  Lemma span_symbol_bytes l : all_bytes l -> forall acc, exists s rest,
    span_symbol l acc = (acc ++ s, rest) /\ bytes_in l = s ++ bytes_in rest /\ boundary_head (bytes_in rest).
  Proof.
    induction l as [|[b| |e] l IH]; intros Ha acc; cbn [span_symbol].
    - exists [], []. rewrite app_nil_r. repeat split; exact I.
    - destruct (is_symbol_terminator b) eqn:Et.
      + exists [], (EByte b :: l). rewrite app_nil_r. repeat split. cbn [bytes_in flat_map app].
        apply ascii_boundary. unfold is_symbol_terminator, memb in Et. cbn [existsb] in Et.
        repeat (apply orb_true_iff in Et; destruct Et as [Et|Et]; [apply N.eqb_eq in Et; subst b; reflexivity|]). discriminate.
      + destruct (IH (all_bytes_tl _ _ Ha) (acc ++ [b])) as (s & rest & E & Eb & Hb). exists (b :: s), rest.
        rewrite E, <- app_assoc. cbn [app bytes_in flat_map]. repeat split; auto. cbn [bytes_in] in Eb. unfold bytes_in in *. rewrite Eb. reflexivity.
    - inversion Ha as [|? ? Hx _]. contradiction.
    - inversion Ha as [|? ? Hx _]. contradiction.
  Qed.

  Lemma hs_take_symbol : hs bnd take_symbol_run (fun p r' => utf8_valid (fst p) = true /\ bnd r').
  Proof.
    intros r Ho Hb. pose proof (okr_step take_symbol_run r cov_take_symbol Ho) as Ho'.
    unfold take_symbol_run in *. destruct Ho as ((c & EW & Hp) & Hk & Ha).
    destruct (span_symbol_bytes (rinput r) Ha []) as (s & rest & E & Eb & Hrest). rewrite E in *. cbn [fst snd app] in *.
    split; [exact Ho'|]. split.
    - pose proof HW as H. rewrite EW, Eb in H. apply (utf8_valid_slice c s (bytes_in rest) H); [|exact Hrest].
      unfold bnd, rem in Hb. rewrite Eb in Hb. exact Hb.
    - unfold bnd, rem. rewrite advance_over_input. exact Hrest.
  Qed.

  Lemma hs_scan_symbol_slice scratch : hs bnd (scan_symbol_slice scratch)
    (fun name r' => (utf8_valid scratch = true -> utf8_valid name = true) /\ bnd r').
  Proof.
    intros r Ho Hb. rewrite scan_symbol_slice_eq. revert r Ho Hb.
    change (hs bnd (p <- take_symbol_run ;;
                    let whole := scratch ++ fst p in
                    if snd p && is_truncated_symbol whole then error EofWhileParsingValue
                    else if beq_bytes whole [46] then error InvalidSymbol else ret whole)
               (fun name r' => (utf8_valid scratch = true -> utf8_valid name = true) /\ bnd r')).
    eapply hs_bind; [apply hs_take_symbol|]. intros p. cbv zeta.
    destruct (snd p && is_truncated_symbol (scratch ++ fst p)); [apply hs_err|].
    destruct (beq_bytes (scratch ++ fst p) [46]); [apply hs_err|].
    apply hs_ret. intros r [Hv Hb]. split; [|exact Hb]. intros Hs. apply utf8_valid_app; assumption.
  Qed.

  (* Read::parse_symbol and Read::parse_r6rs_str on a str: the slice scanner, and no check *)
  Lemma hs_str_rd (io sl m : M bytes) pre post :
    (forall r, m r = match rk r with SrcIo => (b <- io ;; Scan.as_str b) r | _ => (b <- sl ;; finish_str b) r end) ->
    hs pre sl post -> hs pre m post.
  Proof.
    intros E H r Ho Hp. rewrite E, (proj1 (proj2 Ho)). unfold bind. specialize (H r Ho Hp).
    destruct (sl r) as [[b|e] r1]; [|exact I]. unfold finish_str. rewrite (proj1 (proj2 (proj1 H))). exact H.
  Qed.

  Lemma hs_parse_symbol_rd fuel scratch : hs bnd (parse_symbol_rd fuel scratch)
    (fun name r' => (utf8_valid scratch = true -> utf8_valid name = true) /\ bnd r').
  Proof. apply (hs_str_rd (scan_symbol_io fuel scratch) (scan_symbol_slice scratch)); [reflexivity|apply hs_scan_symbol_slice]. Qed.

  Lemma span_plain_bytes l : all_bytes l -> forall acc, exists s rest,
    span_plain l acc = (acc ++ s, rest) /\ bytes_in l = s ++ bytes_in rest /\
    match rest with [] => True | EByte b :: _ => b = 92 \/ b = 34 | _ => False end.
  Proof. clear HW W.
    induction l as [|[b| |e] l IH]; intros Ha acc; cbn [span_plain].
    - exists [], []. rewrite app_nil_r. repeat split; exact I.
    - destruct ((b =? 92) || (b =? 34)) eqn:Et.
      + exists [], (EByte b :: l). rewrite app_nil_r. repeat split. lia.
      + destruct (IH (all_bytes_tl _ _ Ha) (acc ++ [b])) as (s & rest & E & Eb & Hb). exists (b :: s), rest.
        rewrite E, <- app_assoc. cbn [app]. repeat split; auto. unfold bytes_in in *. cbn [flat_map app]. rewrite Eb. reflexivity.
    - inversion Ha as [|? ? Hx _]. contradiction.
    - inversion Ha as [|? ? Hx _]. contradiction.
  Qed.

  Lemma hs_take_run : hs bnd take_run
    (fun p r' => utf8_valid (fst p) = true /\ match snd p with Some b => bnd r' | None => True end).
  Proof.
    intros r Ho Hb. pose proof (okr_step take_run r cov_take_run Ho) as Ho'.
    unfold take_run in *. destruct Ho as ((c & EW & Hp) & Hk & Ha).
    destruct (span_plain_bytes (rinput r) Ha []) as (s & rest & E & Eb & Hrest). rewrite E in *. cbn [app] in *.
    assert (Hbr : boundary_head (bytes_in rest)).
    { destruct rest as [|[b| |e] rest']; try contradiction; [exact I|]. cbn [bytes_in flat_map app]. apply ascii_boundary. lia. }
    assert (Hs : utf8_valid s = true).
    { pose proof HW as H. rewrite EW, Eb in H. apply (utf8_valid_slice c s (bytes_in rest) H); [|exact Hbr].
      unfold bnd, rem in Hb. rewrite Eb in Hb. exact Hb. }
    destruct rest as [|[b| |e] rest']; try contradiction; cbn [fst snd] in *.
    - auto.
    - split; [exact Ho'|]. split; [exact Hs|].
      (* the stop byte is ASCII: what follows it starts a character *)
      unfold bnd, rem. rewrite consume_input. apply valid_boundary.
      pose proof HW as H. rewrite EW, Eb in H. cbn [bytes_in flat_map app] in H.
      rewrite app_assoc in H. apply (utf8_valid_after_ascii (c ++ s) b _ H). lia.
  Qed.

  Lemma cov_next_or_eof : covered next_or_eof.
  Proof. cov sat_next_or_eof. Qed.
  Lemma hs_next_or_eof_ascii pre : hs pre next_or_eof (fun c r' => c < 128 -> bnd r').
  Proof.
    unfold next_or_eof. eapply hs_bind; [apply hs_next_ascii|]. intros o. destruct o as [b|]; [|apply hs_err].
    apply hs_ret. auto.
  Qed.

  Lemma hs_hex_escape_loop fuel : forall n, hs (fun _ => True) (hex_escape_loop fuel n) (fun _ r' => bnd r').
  Proof.
    induction fuel as [|f IH]; intros n; cbn [hex_escape_loop]; [intros r _ _; exact I|].
    eapply hs_bind; [apply hs_next_or_eof_ascii|]. intros c. cbv beta.
    destruct (c =? 59) eqn:E; [apply hs_ret; intros r H; apply H; lia|].
    destruct (decode_hex_val c); [|apply hs_err]. destruct (cp_limit <=? n); [apply hs_err|].
    eapply hs_weaken; [| |apply IH]; cbv beta; auto.
  Qed.

  Lemma hs_parse_r6rs_escape fuel : hs (fun _ => True) (parse_r6rs_escape fuel)
    (fun e r' => utf8_valid e = true /\ bnd r').
  Proof.
    unfold parse_r6rs_escape. eapply hs_bind; [apply hs_next_or_eof_ascii|]. intros ch. cbv beta.
    repeat match goal with
           | |- hs _ (if ch =? ?k then _ else _) _ =>
               let E := fresh "E" in destruct (ch =? k) eqn:E;
               [first [apply hs_ret; intros r H; split; [reflexivity|apply H; lia] | idtac]|]
           end; try apply hs_err.
    apply (hs_bind _ _ _ (fun _ r' => bnd r')); [unfold decode_r6rs_hex_escape; eapply hs_weaken; [| |apply (hs_hex_escape_loop fuel 0)]; cbv beta; auto|].
    intros n. cbv beta. destruct (is_scalar n) eqn:Es; [|apply hs_err].
    apply hs_ret. intros r Hb. split; [apply utf8_encode_valid; exact Es|exact Hb].
  Qed.

  Lemma hs_r6rs_str_slice fuel : forall scratch, hs bnd (r6rs_str_slice fuel scratch)
    (fun s _ => utf8_valid scratch = true -> utf8_valid s = true).
  Proof.
    induction fuel as [|f IH]; intros scratch; [intros r _ _; exact I|].
    intros r Ho Hb. rewrite r6rs_str_slice_eq. revert r Ho Hb.
    change (hs bnd (p <- take_run ;;
                    match snd p with
                    | Some b => if b =? 34 then ret (scratch ++ fst p)
                                else e <- parse_r6rs_escape f ;; r6rs_str_slice f (scratch ++ fst p ++ e)
                    | None => error EofWhileParsingString
                    end) (fun s _ => utf8_valid scratch = true -> utf8_valid s = true)).
    eapply hs_bind; [apply hs_take_run|]. intros p. cbv beta. destruct (snd p) as [b|]; [|apply hs_err].
    destruct (b =? 34).
    - apply hs_ret. intros r [Hv _] Hs. apply utf8_valid_app; assumption.
    - eapply hs_bind.
      + eapply hs_weaken; [| |apply (hs_frame (utf8_valid (fst p) = true) _ _ _ (hs_parse_r6rs_escape f))].
        * intros r [Hv _]. split; [exact Hv|exact I].
        * intros e r H. exact H.
      + intros e. cbv beta. apply hs_pure_pre. intros Hvp. apply hs_pure_pre. intros Hve.
        eapply hs_weaken; [| |apply (IH (scratch ++ fst p ++ e))].
        * intros r Hb. exact Hb.
        * intros s0 r H Hs. apply H. apply utf8_valid_app; [exact Hs|]. apply utf8_valid_app; assumption.
  Qed.

  Lemma hs_parse_r6rs_str_rd fuel : hs bnd (parse_r6rs_str_rd fuel) (fun s _ => utf8_valid s = true).
  Proof.
    apply (hs_str_rd (r6rs_str_io fuel []) (r6rs_str_slice fuel [])); [reflexivity|].
    eapply hs_weaken; [| |apply (hs_r6rs_str_slice fuel [])]; cbv beta; auto.
  Qed.

  Lemma take_bytes_rem k : forall acc r bs r', okr r -> take_bytes k acc r = (Ok bs, r') ->
    exists cs, bs = acc ++ cs /\ rem r = cs ++ rem r'.
  Proof.
    induction k as [|k IH]; intros acc r bs r' Ho E; cbn [take_bytes] in E.
    - inversion E; subst. exists []. rewrite app_nil_r. auto.
    - unfold bind in E. pose proof (okr_step next_char r cov_next Ho) as Ho1.
      destruct (next_char r) as [[[c|]|e] r1] eqn:En; try discriminate; cbn [snd] in Ho1.
      destruct (IH (acc ++ [c]) r1 bs r' Ho1 E) as (cs & Eb & Er). exists (c :: cs).
        rewrite Eb, <- app_assoc. split; [reflexivity|]. rewrite (next_rem r c r1 Ho En), Er. reflexivity.
  Qed.

  Definition prev (b : N) (r : reader) : Prop := exists c0, W = c0 ++ b :: rem r.
  Lemma hs_eat_prev b : hs (at_byte b) eat_char (fun _ r' => prev b r').
  Proof.
    intros r Ho Hat. pose proof (okr_step eat_char r cov_eat Ho) as Ho'. unfold eat_char in *. cbn [snd] in *. split; [exact Ho'|].
    destruct Ho as ((c & E & _) & _). exists c. rewrite E. fold (rem r). rewrite (eat_rem r b Hat). reflexivity.
  Qed.

  Lemma cov_decode_b b : covered (decode_utf8_sequence_b b).
  Proof. cov sat_decode_utf8_sequence_b. Qed.

  Lemma hs_decode_utf8_sequence_b b : hs (prev b) (decode_utf8_sequence_b b)
    (fun res r' => utf8_valid (fst res) = true /\ bnd r').
  Proof.
    intros r Ho (c0 & EW). pose proof (okr_step _ r (cov_decode_b b) Ho) as Ho'.
    unfold decode_utf8_sequence_b in *. destruct (in_range 192 223 b || in_range 224 247 b) eqn:Eb.
    2:{ unfold error. destruct (r_position r). exact I. }
    set (len := if in_range 192 223 b then 1%nat else N.to_nat ((b - 192) / 16)) in *.
    unfold bind in *. destruct (take_bytes len [b] r) as [[bs|e] r1] eqn:Et; [|exact I].
    destruct (take_bytes_rem len [b] r bs r1 Ho Et) as (cs & Ebs & Er). cbn [app] in Ebs.
    destruct (utf8_valid bs) eqn:Ev; [|unfold error; destruct (r_position r1); exact I].
    cbn [fst snd] in *. split; [exact Ho'|]. split; [exact Ev|].
    apply valid_boundary. pose proof HW as H. rewrite EW, Er in H.
    change (c0 ++ b :: cs ++ rem r1) with (c0 ++ (b :: cs) ++ rem r1) in H.
    assert (Hb : boundary_head ((b :: cs) ++ rem r1)) by (cbn; unfold is_cont, in_range in *; lia).
    destruct (utf8_valid_split c0 _ H Hb) as [_ H1]. subst bs. apply (utf8_valid_after (b :: cs) (rem r1) H1 Ev).
  Qed.

  Lemma peek_rem r : okr r -> rem (snd (peek r)) = rem r.
  Proof.
    intros (_ & _ & Ha). unfold peek, r_peek, rem. destruct (rpending r).
    - destruct (rinput r) as [|[b| |e] l] eqn:El; cbn [snd]; rewrite ?El; reflexivity.
    - rewrite (skip_intr_bytes _ Ha). destruct (rinput r) as [|[b| |e] l] eqn:El; cbn [snd rinput]; rewrite ?El; reflexivity.
  Qed.
  Lemma hs_peek_or_null_keep (P : bytes -> Prop) : hs (fun r => P (rem r)) peek_or_null (fun _ r' => P (rem r')).
  Proof.
    intros r Ho Hp. pose proof (okr_step peek r cov_peek Ho) as Ho'. pose proof (peek_rem r Ho) as Er.
    unfold peek_or_null, bind. destruct (peek r) as [[o|e] r1]; [|exact I]. cbn [snd] in *. rewrite <- Er in Hp.
    destruct o; unfold ret; auto.
  Qed.

  Definition hsv {A} (pre : reader -> Prop) (m : M A) (q : A -> Prop) : Prop :=
    forall r, okr r -> pre r -> match m r with (Ok a, _) => q a | (Err _, _) => True end.
  Lemma hsv_bind {A B} pre (m : M A) (f : A -> M B) mid q : hs pre m mid -> (forall a, hsv (mid a) (f a) q) -> hsv pre (bind m f) q.
  Proof.
    intros Hm Hf r Ho Hp. unfold bind. specialize (Hm r Ho Hp). destruct (m r) as [[a|e] r1]; [|exact I].
    destruct Hm as [Ho1 Hmid]. apply (Hf a r1 Ho1 Hmid).
  Qed.
  Lemma hsv_triv {A} pre (m : M A) (q : A -> Prop) : (forall a, q a) -> hsv pre m q.
  Proof. intros H r _ _. destruct (m r) as [[a|e] r1]; auto. Qed.
  Lemma hsv_of_hs {A} pre (m : M A) post (q : A -> Prop) : hs pre m post -> (forall a r, post a r -> q a) -> hsv pre m q.
  Proof. intros H Hq r Ho Hp. specialize (H r Ho Hp). destruct (m r) as [[a|e] r1]; [|exact I]. destruct H. eauto. Qed.
  Lemma hsv_ret {A} (pre : reader -> Prop) (a : A) (q : A -> Prop) : q a -> hsv pre (ret a) q.
  Proof. intros H r _ _. exact H. Qed.
  Lemma hsv_always {A} pre (m : M A) (q : A -> Prop) : always q m -> hsv pre m q.
  Proof. intros H r _ _. apply H. Qed.
  Lemma hsv_err {A} pre c (q : A -> Prop) : hsv pre (error c) q /\ hsv pre (peek_error c) q.
  Proof. split; apply hsv_always, always_err. Qed.
  Lemma hsv_weaken {A} (pre pre' : reader -> Prop) (m : M A) (q : A -> Prop) : (forall r, pre' r -> pre r) -> hsv pre m q -> hsv pre' m q.
  Proof. intros H1 H r Ho Hp. exact (H r Ho (H1 r Hp)). Qed.

  Lemma hsv_symbol_arm fuel scratch (mk : bytes -> token) : utf8_valid scratch = true ->
    (forall s, utf8_valid s = true -> tok_valid (mk s)) ->
    hsv bnd (s <- parse_symbol_rd fuel scratch ;; ret (mk s)) tok_valid.
  Proof.
    intros Hs Hmk. eapply hsv_bind; [apply hs_parse_symbol_rd|]. intros name. cbv beta.
    intros r _ [Hv _]. cbn. apply Hmk. apply Hv. exact Hs.
  Qed.

  Lemma hsv_pure_pre {A} (P : Prop) pre (m : M A) q : (P -> hsv pre m q) -> hsv (fun r => P /\ pre r) m q.
  Proof. intros H r Ho [HP Hp]. exact (H HP r Ho Hp). Qed.

  Section Token.
    Variable ro : parse_options.
    Variable alpha : N -> bool.
    Variable fast : bool.
    Variable std_parse : N -> Z -> f64.

    Lemma ascii_valid1 c : c < 128 -> utf8_valid [c] = true.
    Proof. intros H. apply ascii_valid. repeat constructor. exact H. Qed.

    Theorem hsv_parse_token fuel b : hsv (at_byte b) (parse_token ro alpha fast std_parse fuel b) tok_valid.
    Proof.
      unfold parse_token.
      destruct (b =? 35) eqn:E35.
      { eapply hsv_bind; [apply (hs_eat_ascii b); lia|]. intros ?u.
        eapply hsv_bind; [apply hs_next_ascii|]. intros o. destruct o as [c|]; [|apply hsv_err]. cbv beta.
        destruct (c =? 116); [apply hsv_ret; exact I|]. destruct (c =? 102); [apply hsv_ret; exact I|].
        destruct (c =? 110); [apply hsv_always; alw|]. destruct (c =? 40); [apply hsv_ret; exact I|].
        destruct ((c =? 58) && ro_kw_octo ro) eqn:Ek.
        { eapply hsv_weaken; [|apply (hsv_symbol_arm fuel [] TKeyword eq_refl)]; [|intros s Hs; exact Hs].
          intros r H. apply H. apply andb_prop in Ek. destruct Ek as [Ek _]. lia. }
        destruct (c =? 118); [apply hsv_always; alw|]. destruct (c =? 117); [apply hsv_always; alw|].
        destruct (c =? 98); [apply hsv_always; alw|]. destruct (c =? 111); [apply hsv_always; alw|].
        destruct (c =? 100); [apply hsv_always; alw|]. destruct (c =? 120); [apply hsv_always; alw|].
        destruct (c =? 92); [apply hsv_always; alw|].
        destruct ((c =? 37) && ro_racket ro) eqn:Er; [|apply hsv_err].
        eapply hsv_weaken; [|apply (hsv_symbol_arm fuel (s2b "#%") TSymbol eq_refl)]; [|intros s Hs; exact Hs].
        intros r H. apply H. apply andb_prop in Er. destruct Er as [Er _]. lia. }
      destruct ((b =? 45) || (b =? 43)) eqn:Esg.
      { assert (Hb : b < 128) by lia.
        eapply hsv_bind; [apply (hs_eat_ascii b Hb)|]. intros ?u.
        eapply hsv_bind; [apply (hs_peek_or_null_keep boundary_head)|]. intros nx. cbv beta.
        match goal with |- hsv _ (if ?c then _ else _) _ => destruct c end; [|apply hsv_always; alw].
        apply (hsv_symbol_arm fuel [b] _ (ascii_valid1 b Hb) (symbol_token_valid ro)). }
      destruct (is_digit b) eqn:Ed.
      { assert (Hb : b < 128) by (unfold is_digit, in_range in Ed; lia).
        destruct (ro_digit ro); [|apply hsv_always; alw].
        eapply hsv_bind; [eapply hs_weaken; [| |apply (hs_parse_symbol_rd fuel [])]; [intros r H; exact (at_ascii_bnd r b H Hb)|intros a r H; exact H]|].
        intros name. cbv beta. intros r _ [Hv _].
        destruct (number_of_symbol fast std_parse fuel name); cbn; [exact I|apply symbol_token_valid; apply Hv; reflexivity]. }
      destruct (b =? 34) eqn:E34.
      { eapply hsv_bind; [apply (hs_eat_ascii b); lia|]. intros ?u. destruct (ro_string ro).
        - eapply hsv_bind; [apply hs_parse_r6rs_str_rd|]. intros s0. cbv beta. intros r _ Hv. exact Hv.
        - apply hsv_always, (always_bind elisp_valid); [apply always_parse_elisp_str_rd|].
          intros e He. destruct e; apply always_ret; [exact I|exact He]. }
      destruct (b =? 40); [apply hsv_always; alw|].
      destruct (b =? 91); [apply hsv_always; alw|].
      destruct (b =? 58) eqn:E58.
      { destruct (ro_kw_prefix ro).
        - eapply hsv_bind; [apply (hs_eat_ascii b); lia|]. intros ?u.
          apply (hsv_symbol_arm fuel [] TKeyword eq_refl). intros s Hs; exact Hs.
        - eapply hsv_weaken; [|apply (hsv_symbol_arm fuel [] TSymbol eq_refl)]; [|intros s Hs; exact Hs].
          intros r H. apply (at_ascii_bnd r b H). lia. }
      destruct (is_ascii_alpha b) eqn:Ea.
      { eapply hsv_weaken; [|apply (hsv_symbol_arm fuel [] _ eq_refl (symbol_token_valid ro))].
        intros r H. apply (at_ascii_bnd r b H). unfold is_ascii_alpha, is_ascii_lower, is_ascii_upper, in_range in Ea. lia. }
      destruct ((b =? 63) && _); [apply hsv_always; alw|].
      destruct (b =? 39); [apply hsv_always; alw|].
      destruct (b =? 96); [apply hsv_always; alw|].
      destruct (b =? 44); [apply hsv_always; alw|].
      destruct (127 <? b) eqn:Ehi.
      { eapply hsv_bind; [apply hs_eat_prev|]. intros ?u.
        eapply hsv_bind; [apply hs_decode_utf8_sequence_b|]. intros res. cbv beta.
        destruct (negb (alpha (snd res))); [apply hsv_err|].
        apply hsv_pure_pre. intros Hv. apply (hsv_symbol_arm fuel (fst res) _ Hv (symbol_token_valid ro)). }
      destruct (memb b SYMBOL_EXTENDED) eqn:Ex.
      { eapply hsv_weaken; [|apply (hsv_symbol_arm fuel [] _ eq_refl (symbol_token_valid ro))].
        intros r H. apply (at_ascii_bnd r b H). lia. }
      intros r _ _. unfold peek_error. destruct (r_peek_position r). exact I.
    Qed.
  End Token.

  (* pinv (DepthBoundProofs) at the invariant okr, written out: the two unfold
     to the same, so that judgement's rules apply *)
  Definition psp {A} (pre : reader -> Prop) (m : PM A) (q : A -> Prop) : Prop :=
    forall s, okr (rd s) -> pre (rd s) -> match m s with (POk a, s') => okr (rd s') /\ q a | (PErr _, _) => True end.
  Definition anyr (_ : reader) : Prop := True.

  Lemma psp_bindR {A B} pre (m : M A) (K : A -> PM B) mid q :
    hs pre m mid -> (forall a, psp (mid a) (K a) q) -> psp pre (pbind (liftR m) K) q.
  Proof.
    intros Hm HK s Ho Hp. rewrite pbind_unfold. unfold liftR. specialize (Hm (rd s) Ho Hp).
    destruct (m (rd s)) as [[a|e] r1]; [|exact I]. destruct Hm as [Ho1 Hmid]. apply (HK a {| rd := r1; depth := depth s |} Ho1 Hmid).
  Qed.
  Lemma psp_liftR {A} pre (m : M A) post (p : A -> Prop) : hs pre m post -> (forall a r, post a r -> p a) -> psp pre (liftR m) p.
  Proof.
    intros Hm Hp s Ho Hpre. unfold liftR. specialize (Hm (rd s) Ho Hpre). destruct (m (rd s)) as [[a|e] r1]; [|exact I].
    destruct Hm as [Ho1 Hq]. cbn [rd]. split; [exact Ho1|eauto].
  Qed.

  Definition pcovered {A} (m : PM A) : Prop := psat (Rpos W) m /\ psat Rrk m /\ psat Rab m.
  Lemma psp_any {A} pre (m : PM A) : pcovered m -> psp pre m (fun _ => True).
  Proof.
    intros (H1 & H2 & H3) s (Hi & Hk & Ha) _. specialize (H1 s). specialize (H2 s). specialize (H3 s).
    unfold Rpos, Rrk, Rab in *. destruct (m s) as [[a|e] s1]; cbn [fst snd perase] in *; [|exact I].
    destruct (H1 Hi) as [Hi' _]. split; [|exact I]. repeat split; auto. congruence.
  Qed.
  Lemma pcov_liftR {A} (m : M A) : covered m -> pcovered (liftR m).
  Proof. intros (H1 & H2 & H3). split; [|split]; apply psat_liftR; assumption. Qed.
  Lemma pcov_enter : pcovered enter_nesting.
  Proof. cov psat_enter_nesting. Qed.

  Lemma cov_ws f : covered (parse_whitespace f).
  Proof. cov sat_parse_whitespace. Qed.
  Lemma psp_ws {B} f (kn : PM B) (ks : N -> PM B) q :
    psp anyr kn q -> (forall c, psp (at_byte c) (ks c) q) ->
    psp anyr (pbind (liftR (parse_whitespace f)) (fun o => match o with None => kn | Some c => ks c end)) q.
  Proof.
    intros Hn Hs s Ho _. rewrite pbind_unfold. unfold liftR.
    pose proof (okr_step _ (rd s) (cov_ws f) Ho) as Ho1. pose proof (ws_at_byte f (rd s)) as Hat.
    destruct (parse_whitespace f (rd s)) as [[o|e] r1]; [|exact I]. cbn [snd] in Ho1.
    destruct o as [c|]; [apply (Hs c {| rd := r1; depth := depth s |} Ho1 Hat)|apply (Hn {| rd := r1; depth := depth s |} Ho1 I)].
  Qed.

  Lemma cov_end_seq f c : covered (end_seq f c).
  Proof. cov sat_end_seq. Qed.
  Lemma hs_of_hsv {A} pre (m : M A) (q : A -> Prop) : hsv pre m q -> covered m -> hs pre m (fun a _ => q a).
  Proof.
    intros Hv Hc r Ho Hp. specialize (Hv r Ho Hp). pose proof (okr_step m r Hc Ho) as Ho'.
    destruct (m r) as [[a|e] r1]; [|exact I]. auto.
  Qed.
  Lemma hs_eat_peek_bnd c : c < 128 -> hs (at_byte c) (eat_char ;;; peek) (fun _ r' => bnd r').
  Proof.
    intros Hc. eapply hs_bind; [apply (hs_eat_ascii c Hc)|]. intros u. cbv beta.
    intros r Ho Hb. pose proof (okr_step peek r cov_peek Ho) as Ho'. pose proof (peek_rem r Ho) as Er.
    destruct (peek r) as [[o|e] r1]; [|exact I]. cbn [snd] in *. split; [exact Ho'|]. unfold bnd. rewrite Er. exact Hb.
  Qed.

  Section Values.
    Variable ro : parse_options.
    Variable alpha : N -> bool.
    Variable fast : bool.
    Variable std_parse : N -> Z -> f64.
    Local Notation next_value := (next_value ro alpha fast std_parse).
    Local Notation parse_list := (parse_list ro alpha fast std_parse).
    Local Notation parse_vector := (parse_vector ro alpha fast std_parse).

    Lemma cov_token f b : covered (parse_token ro alpha fast std_parse f b).
    Proof. cov sat_parse_token. Qed.
    Lemma cov_byte_list f c : covered (parse_byte_list fast std_parse f c).
    Proof. cov sat_parse_byte_list. Qed.
    Lemma psp_token f b : psp (at_byte b) (liftR (parse_token ro alpha fast std_parse f b)) tok_valid.
    Proof.
      eapply psp_liftR; [apply (hs_of_hsv _ _ _ (hsv_parse_token ro alpha fast std_parse f b) (cov_token f b))|].
      intros a r H. exact H.
    Qed.

    Theorem values_valid_str fuel :
      psp anyr (next_value fuel) opt_valid /\
      (forall t acc, Forall strs_valid acc -> psp anyr (parse_list fuel t acc) strs_valid) /\
      (forall t acc, Forall strs_valid acc -> psp anyr (parse_vector fuel t acc) (Forall strs_valid)).
    Proof.
      induction fuel as [|f (IHv & IHl & IHvec)].
      - split; [|split]; intros; cbn [Parser.next_value Parser.parse_list Parser.parse_vector]; apply (pinv_fail okr).
      - split; [|split]; intros; cbn [Parser.next_value Parser.parse_list Parser.parse_vector]; fold next_value parse_list parse_vector.
        + apply psp_ws; [apply (pinv_ret okr); exact I|]. intros b.
          apply (pinv_bind okr _ _ _ tok_valid opt_valid); [apply psp_token|].
          intros tok Ht. destruct tok; cbn [tok_valid] in Ht; try (apply (pinv_ret okr); cbn [opt_valid strs_valid]; auto; fail).
          * (* list *)
            apply (pinv_skip okr); [apply psp_any, pcov_enter|]. intros u.
            apply (pinv_nest_seq okr anyr _ _ _ strs_valid opt_valid); [apply IHl; constructor|apply psp_any, pcov_liftR, cov_end_seq|].
            intros l Hl. apply (pinv_ret okr). exact Hl.
          * (* quotation *)
            apply (pinv_skip okr); [apply psp_any, pcov_enter|]. intros u.
            apply (pinv_nest_quote okr anyr _ _ opt_valid opt_valid); [exact IHv|].
            intros o Ho. destruct o as [d|]; [|apply (pinv_err okr)].
            apply (pinv_ret okr). cbn [opt_valid vlist build strs_valid]. auto.
          * (* vector *)
            apply (pinv_skip okr); [apply psp_any, pcov_enter|]. intros u.
            apply (pinv_nest_seq okr anyr _ _ _ (Forall strs_valid) opt_valid); [apply IHvec; constructor|apply psp_any, pcov_liftR, cov_end_seq|].
            intros l Hl. apply (pinv_ret okr). cbn [opt_valid]. apply strs_valid_vector. exact Hl.
          * (* byte vector *)
            apply (pinv_skip okr); [apply psp_any, pcov_liftR, cov_byte_list|]. intros bs. apply (pinv_ret okr). exact I.
        + apply psp_ws; [apply (pinv_err okr)|]. intros c.
          destruct (is_closer c).
          { destruct (negb (c =? t)); [apply (pinv_err okr)|]. apply (pinv_ret okr). apply strs_valid_build; [assumption|exact I]. }
          destruct (c =? 46) eqn:E46.
          { apply (psp_bindR _ _ _ (fun _ r' => bnd r')); [apply hs_eat_peek_bnd; lia|]. intros nx.
            destruct (lone_dot nx).
            - apply (pinv_weaken okr anyr); [intros; exact I|]. destruct acc as [|x acc'].
              + apply (pinv_skip okr); [apply psp_any, pcov_liftR, cov_peek|]. intros o3. destruct o3; apply (pinv_err okr).
              + apply (pinv_bind okr _ _ _ opt_valid strs_valid); [exact IHv|]. intros ov Hov.
                destruct ov as [cdr|]; [|apply (pinv_err okr)].
                apply (pinv_skip okr); [apply psp_any, pcov_liftR, cov_ws|]. intros o2.
                destruct o2 as [c2|]; [|apply (pinv_err okr)]. destruct (c2 =? t); [|apply (pinv_err okr)].
                apply (pinv_ret okr). apply strs_valid_build; assumption.
            - apply (psp_bindR _ _ _ (fun name _ => utf8_valid name = true)).
              + unfold parse_symbol_suffix. eapply hs_weaken; [| |apply (hs_parse_symbol_rd f [46])]; [auto|].
                intros name r [Hv _]. apply Hv. reflexivity.
              + intros name. intros s Ho Hn. apply (IHl t (acc ++ [symbol_value ro name])); [|exact Ho|exact I].
                apply Forall_snoc; [assumption|apply symbol_value_valid; exact Hn]. }
          apply (pinv_weaken okr anyr); [intros; exact I|].
          apply (pinv_bind okr _ _ _ opt_valid strs_valid); [exact IHv|]. intros ov Hov.
          destruct ov as [v|]; [|apply (pinv_err okr)]. apply IHl. apply Forall_snoc; assumption.
        + apply psp_ws; [apply (pinv_err okr)|]. intros c.
          destruct (is_closer c).
          { destruct (negb (c =? t)); [apply (pinv_err okr)|]. apply (pinv_ret okr). assumption. }
          apply (pinv_weaken okr anyr); [intros; exact I|].
          apply (pinv_bind okr _ _ _ opt_valid (Forall strs_valid)); [exact IHv|]. intros ov Hov.
          destruct ov as [v|]; [|apply (pinv_err okr)]. apply IHvec. apply Forall_snoc; assumption.
    Qed.
  End Values.
End StrInput.

Lemma bytes_in_bytes_events W : bytes_in (bytes_events W) = W.
Proof. induction W as [|b W IH]; [reflexivity|]. cbn [bytes_events map bytes_in flat_map app]. unfold bytes_in, bytes_events in IH. rewrite IH. reflexivity. Qed.
Lemma all_bytes_events W : all_bytes (bytes_events W).
Proof. induction W as [|b W IH]; constructor; [exact I|exact IH]. Qed.

Theorem from_trait_str_valid ro alpha fast std_parse W v : utf8_valid W = true ->
  from_trait ro alpha fast std_parse SrcStr (bytes_events W) = POk v -> strs_valid v.
Proof.
  intros HW E. set (inp := bytes_events W) in *. destruct (from_trait_next _ _ _ _ _ _ _ E) as [s1 E1].
  assert (Ho : okr W (rd (init_state SrcStr inp))).
  { split; [apply inv_init; unfold inp; rewrite bytes_in_bytes_events; reflexivity|]. split; [reflexivity|apply all_bytes_events]. }
  pose proof (proj1 (values_valid_str W HW ro alpha fast std_parse (fuel_for inp)) (init_state SrcStr inp) Ho I) as H.
  rewrite E1 in H. apply H.
Qed.
