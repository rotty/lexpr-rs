(* The nesting budget (remaining_depth) is restored by every call, never
   underflows, and bounds the recursion: C03 (history invariant, no panic). *)
From Coq Require Import SpecFloat ZifyBool.
Require Import Base Value Float PrintOptions ParseOptions Utf8 Reader Scan Num NumberOps Parser.
Require Import RelFramework.

Definition no_panic {A} (r : pres A) : Prop := forall k, r <> PErr (XPanic k).
Definition depth_ok (s : pstate) : Prop := 1 <= depth s <= 128.
Definition out_of_fuel_p {A} (r : pres A) : Prop := r = PErr (XErr EFuel).

Definition good {A} (m : PM A) : Prop :=
  forall s, depth_ok s ->
    no_panic (fst (m s)) /\ (~ out_of_fuel_p (fst (m s)) -> depth (snd (m s)) = depth s).

Lemma good_pret {A} (a : A) : good (pret a).
Proof. intros s H; split; [intros k; discriminate|reflexivity]. Qed.

Lemma good_pfail_x {A} (e : perr) : good (@pfail A (XErr e)).
Proof. intros s H; split; [intros k; discriminate|reflexivity]. Qed.

(* Reader-level actions cannot touch the budget and cannot panic: their error
   type has no panic constructor. *)
Lemma good_liftR {A} (m : M A) : good (liftR m).
Proof.
  intros s H. unfold liftR. destruct (m (rd s)) as [[a|e] rd']; cbn [fst snd depth];
    (split; [intros k; discriminate|reflexivity]).
Qed.

Lemma depth_ok_eq s s' : depth s' = depth s -> depth_ok s -> depth_ok s'.
Proof. unfold depth_ok; intros ->; auto. Qed.

Lemma good_bind {A B} (m : PM A) (f : A -> PM B) :
  good m -> (forall a, good (f a)) -> good (pbind m f).
Proof.
  intros Hm Hf s H. unfold pbind. destruct (Hm s H) as [Hp Hd].
  destruct (m s) as [[a|e] s'] eqn:E; cbn [fst snd] in *.
  - assert (Hd' : depth s' = depth s) by (apply Hd; discriminate).
    destruct (Hf a s' (depth_ok_eq _ _ Hd' H)) as [Hp' Hd2]. split; [exact Hp'|]. intros Hn. rewrite Hd2; auto.
  - split.
    + intros k Hk. apply (Hp k). inversion Hk. reflexivity.
    + intros Hn. apply Hd. intros Hk. apply Hn. unfold out_of_fuel_p in *. inversion Hk. reflexivity.
Qed.

Lemma pbind_eq {A B} (m : PM A) (f : A -> PM B) s r s' : m s = (r, s') ->
  pbind m f s = match r with POk a => f a s' | PErr e => (PErr e, s') end.
Proof. intros E. unfold pbind. now rewrite E. Qed.

Lemma attempt_cases {A} (m : PM A) s : good m -> depth_ok s ->
  (exists r s', attempt m s = (POk r, s') /\ r <> Err EFuel /\ depth s' = depth s) \/
  (exists s', attempt m s = (PErr (XErr EFuel), s')).
Proof.
  intros Hm H. destruct (Hm s H) as [Hp Hd]. unfold attempt.
  destruct (m s) as [[a|[[c l cl|io|]|k]] s']; cbn [fst snd] in *;
    [left; eexists; eexists; split; [reflexivity|split; [discriminate|apply Hd; discriminate]] ..
    |right; eexists; reflexivity
    |exfalso; eapply Hp; reflexivity].
Qed.

Lemma good_attempt_bind {A B} (m : PM A) (f : res A -> PM B) :
  good m -> (forall r, r <> Err EFuel -> good (f r)) -> good (pbind (attempt m) f).
Proof.
  intros Hm Hf s H.
  destruct (attempt_cases m s Hm H) as [(r & s' & Ea & Hr & Hd')|[s' Ea]]; rewrite (pbind_eq _ _ _ _ _ Ea).
  - destruct (Hf r Hr s' (depth_ok_eq _ _ Hd' H)) as [Hp' Hd2]. split; [exact Hp'|]. intros Hn. rewrite Hd2; auto.
  - cbn [fst snd]. split; [intros k; discriminate|intros Hn; exfalso; apply Hn; reflexivity].
Qed.

Lemma good_lift {A} (r : res A) : good (lift r).
Proof. destruct r as [a|e]; [apply good_pret|apply good_pfail_x]. Qed.

Lemma good_both {A} (r : res A) (e : res unit) : good (both r e).
Proof.
  destruct r as [a|er]; destruct e as [u|ee]; cbn [both];
    first [apply good_pret | apply good_pfail_x].
Qed.

Lemma peek_error_eq {A} c r : exists l cl, peek_error (A := A) c r = (Err (ESyntax c l cl), r).
Proof. unfold peek_error. destruct (r_peek_position r) as [l cl]. now exists l, cl. Qed.

Lemma inc_depth_spec s : depth s < 255 ->
  inc_depth s = (POk tt, {| rd := rd s; depth := depth s + 1 |}).
Proof.
  intros H. unfold inc_depth, pbind, get_depth, set_depth, panic, pfail. cbn [fst snd depth rd].
  destruct (255 <=? depth s) eqn:E; [lia|reflexivity].
Qed.

Lemma enter_nesting_spec s : depth_ok s ->
  (depth s = 1 /\ exists l cl, enter_nesting s = (PErr (XErr (ESyntax RecursionLimitExceeded l cl)), s)) \/
  (1 < depth s /\ enter_nesting s = (POk tt, {| rd := rd s; depth := depth s - 1 |})).
Proof.
  unfold depth_ok. intros H. destruct s as [r d]. cbn [depth rd] in *.
  unfold enter_nesting, dec_depth, inc_depth, pbind, get_depth, set_depth, panic, pfail, pret, liftR.
  cbn [fst snd depth rd].
  destruct (d =? 0) eqn:E0; [lia|]. cbn [fst snd depth rd].
  destruct (d - 1 =? 0) eqn:E1; cbn [fst snd depth rd].
  - left. split; [lia|].
    destruct (255 <=? d - 1) eqn:E2; [lia|]. cbn [fst snd depth rd].
    destruct (peek_error_eq (A := unit) RecursionLimitExceeded r) as (l & cl & ->).
    exists l, cl. f_equal. f_equal. lia.
  - right. split; [lia|reflexivity].
Qed.

Lemma good_nest {A B} (body : PM A) (k : res A -> PM B) :
  good body -> (forall r, r <> Err EFuel -> good (k r)) ->
  good (pbind enter_nesting (fun _ => pbind (attempt body) (fun r => pbind inc_depth (fun _ => k r)))).
Proof.
  intros Hbody Hk s H.
  destruct (enter_nesting_spec s H) as [[Hd1 (l & cl & He)]|[Hd1 He]]; rewrite (pbind_eq _ _ _ _ _ He).
  - cbn. split; [intros k0; discriminate|intros _; reflexivity].
  - set (s1 := {| rd := rd s; depth := depth s - 1 |}).
    assert (H1 : depth_ok s1) by (unfold depth_ok, s1 in *; cbn; lia).
    destruct (attempt_cases body s1 Hbody H1) as [(r & s2 & Ea & Hr & Hd2)|[s2 Ea]]; rewrite (pbind_eq _ _ _ _ _ Ea).
    + unfold pbind. unfold depth_ok in H. rewrite inc_depth_spec by (rewrite Hd2; cbn; lia).
      set (s3 := {| rd := rd s2; depth := depth s2 + 1 |}).
      assert (E3 : depth s3 = depth s) by (unfold s3; rewrite Hd2; cbn; lia).
      destruct (Hk r Hr s3 (depth_ok_eq _ _ E3 H)) as [Hp3 Hd3]. split; [exact Hp3|].
      intros Hn. rewrite (Hd3 Hn). exact E3.
    + cbn [fst snd]. split; [intros k0; discriminate|intros Hn; exfalso; apply Hn; reflexivity].
Qed.

Section Main.
  Variable ro : parse_options.
  Variable alpha : N -> bool.
  Variable fast : bool.
  Variable std_parse : N -> Z -> f64.

  Local Notation next_value := (next_value ro alpha fast std_parse).
  Local Notation parse_list := (parse_list ro alpha fast std_parse).
  Local Notation parse_vector := (parse_vector ro alpha fast std_parse).
  Local Notation next_datum := (next_datum ro alpha fast std_parse).
  Local Notation parse_list_meta := (parse_list_meta ro alpha fast std_parse).
  Local Notation parse_vector_meta := (parse_vector_meta ro alpha fast std_parse).

  (* a reader-level step is good whatever it is, so the rules of the walk come
     from good_bind, good_liftR and the nesting block good_nest *)
  Ltac good_walk lem :=
    apply (lem ro alpha fast std_parse (@good) (fun _ : N => @good));
    first [ exact (fun (_ : N) A (m : PM A) (H : good m) => H) | exact (@good_pret) | exact (fun A => @good_pfail_x A EFuel)
          | exact (@good_bind) | exact (fun A c => good_liftR (@peek_error A c))
          | exact (fun A fuel k Hn Hs => good_bind _ k (good_liftR (parse_whitespace fuel))
                                           (fun o => match o with Some b => Hs b | None => Hn end))
          | exact (fun (_ : N) A fuel k => good_bind _ k (good_liftR _))
          | exact (fun (_ : N) A k => good_bind _ k (good_liftR _))
          | exact (fun A k => good_bind _ k (good_liftR _))
          | exact (good_liftR _) | exact (fun fuel => good_liftR _) | exact (fun fuel x => good_liftR _)
          | exact (fun A B body fuel close k Hb Hk =>
                     good_nest body _ Hb (fun r _ => good_attempt_bind _ _ (good_liftR (end_seq fuel close))
                                                       (fun e _ => good_bind _ k (good_both r e) Hk)))
          | exact (fun A B body k Hb Hk => good_nest body _ Hb (fun r _ => good_bind _ k (good_lift r) Hk)) ].

  Lemma good_values fuel :
    good (next_value fuel) /\
    (forall t acc, good (parse_list fuel t acc)) /\
    (forall t acc, good (parse_vector fuel t acc)).
  Proof. good_walk pwalk_values. Qed.

  Lemma good_datums fuel :
    good (next_datum fuel) /\
    (forall t acc, good (parse_list_meta fuel t acc)) /\
    (forall t acc, good (parse_vector_meta fuel t acc)).
  Proof. good_walk pwalk_datums. Qed.
End Main.

Section History.
  Variable ro : parse_options.
  Variable alpha : N -> bool.
  Variable fast : bool.
  Variable std_parse : N -> Z -> f64.

  Definition call_ok (r : call_result) : Prop :=
    (forall k, r <> RErr (XPanic k)).
  Definition call_fuel (r : call_result) : Prop := r = RErr (XErr EFuel).

  Lemma good_expect_value fuel : good (expect_value ro alpha fast std_parse fuel).
  Proof.
    unfold expect_value. apply good_bind; [apply good_values|].
    intros [v|]; [apply good_pret|apply good_liftR].
  Qed.
  Lemma good_expect_datum fuel : good (expect_datum ro alpha fast std_parse fuel).
  Proof.
    unfold expect_datum. apply good_bind; [apply good_datums|].
    intros [v|]; [apply good_pret|apply good_liftR].
  Qed.

  Lemma call_good {A} (m : PM A) (wrap : A -> call_result) s : good m -> (forall a e, wrap a <> RErr e) -> depth_ok s ->
    let '(r, s') := match m s with (POk a, s') => (wrap a, s') | (PErr e, s') => (RErr e, s') end in
    call_ok r /\ (~ call_fuel r -> depth s' = depth s).
  Proof.
    intros Hm Hw H. unfold call_ok, call_fuel. destruct (Hm s H) as [Hp Hd].
    destruct (m s) as [[a|e] s']; cbn [fst snd] in *.
    - split; [intros k; apply Hw|intros _; apply Hd; discriminate].
    - split; [intros k E; inversion E; subst; eapply Hp; reflexivity|].
      intros Hn. apply Hd. intros E. apply Hn. unfold out_of_fuel_p in E. inversion E. reflexivity.
  Qed.

  Lemma run_call_good fuel c s : depth_ok s ->
    let '(r, s') := run_call ro alpha fast std_parse fuel c s in
    call_ok r /\ (~ call_fuel r -> depth s' = depth s).
  Proof.
    intros H. destruct c; cbn [run_call].
    - apply (call_good _ RValue); [apply good_values|discriminate|exact H].
    - apply (call_good _ RDatum); [apply good_datums|discriminate|exact H].
    - apply (call_good _ (fun v => RValue (Some v))); [apply good_expect_value|discriminate|exact H].
    - apply (call_good _ (fun d => RDatum (Some d))); [apply good_expect_datum|discriminate|exact H].
    - apply (call_good _ (fun _ => RUnit)); [apply good_liftR|discriminate|exact H].
  Qed.

  (* C03: no call in a history of API calls on one parser panics (in particular
     remaining_depth never underflows), as long as the model does not run out of fuel *)
  Lemma history_no_panic fuel cs s : depth_ok s ->
    Forall (fun r => ~ call_fuel r) (run_history ro alpha fast std_parse fuel cs s) ->
    Forall call_ok (run_history ro alpha fast std_parse fuel cs s).
  Proof.
    revert s; induction cs as [|c cs IH]; intros s H Hf; cbn [run_history] in *; [constructor|].
    pose proof (run_call_good fuel c s H) as Hc.
    destruct (run_call ro alpha fast std_parse fuel c s) as [r s'].
    destruct Hc as [Hok Hd]. inversion Hf as [|? ? Hr Hrest]; subst.
    constructor; [exact Hok|].
    apply IH; [|exact Hrest]. apply (depth_ok_eq s s'); [apply Hd; exact Hr|exact H].
  Qed.

  Lemma init_depth_ok k inp : depth_ok (init_state k inp).
  Proof. unfold depth_ok, init_state, initial_depth; cbn; lia. Qed.
End History.
