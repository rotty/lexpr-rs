(* C19 (and the span endpoints of C11): every position the parser reports is
   the position just after some prefix of the input's bytes, hence in bounds.
   Instance of the generic traversal with the reader invariant "line/column =
   position after the bytes consumed so far". *)
From Coq Require Import SpecFloat Lia ZifyBool ZifyNat ZifyN.
Require Import Base Value Float PrintOptions ParseOptions Utf8 Reader Scan Num NumberOps Parser RelFramework.

Definition bytes_in (l : list event) : bytes :=
  flat_map (fun e => match e with EByte b => [b] | _ => [] end) l.
Definition adv (q : N * N) (b : N) : N * N := advance (fst q) (snd q) b.
Definition pos_from (q : N * N) (p : bytes) : N * N := fold_left adv p q.
Definition pos_after (p : bytes) : N * N := pos_from (1, 0) p.

Lemma pos_from_app q a b : pos_from q (a ++ b) = pos_from (pos_from q a) b.
Proof. apply fold_left_app. Qed.

Lemma bytes_in_skip_intr l : bytes_in (skip_intr l) = bytes_in l.
Proof. induction l as [|[b| |e] l IH]; cbn [skip_intr bytes_in flat_map app]; auto. Qed.

Section Positions.
  Variable W : bytes.   (* the bytes of the whole input, in order *)

  Definition inv (r : reader) : Prop :=
    exists consumed, W = consumed ++ bytes_in (rinput r) /\ (rline r, rcol r) = pos_after consumed.
  Definition prefix_pos (l cl : N) : Prop := exists p q, W = p ++ q /\ (l, cl) = pos_after p.

  Definition Rpos (r : reader) (x : option perr) (r' : reader) : Prop :=
    inv r -> inv r' /\ (forall c l cl, x = Some (ESyntax c l cl) -> prefix_pos l cl).

  Lemma Rpos_ret r : Rpos r None r.
  Proof. intros H. split; [exact H|]. intros; discriminate. Qed.
  Lemma Rpos_seq r r1 x r2 : Rpos r None r1 -> Rpos r1 x r2 -> Rpos r x r2.
  Proof. intros H1 H2 Hi. apply H2. apply H1. exact Hi. Qed.
  Lemma Rpos_fuel r : Rpos r (Some EFuel) r.
  Proof. intros H. split; [exact H|]. intros; discriminate. Qed.
  Lemma Rpos_rec1 r e r1 x r2 : Rpos r (Some e) r1 -> Rpos r1 x r2 -> Rpos r (Some e) r2.
  Proof. intros H1 H2 Hi. destruct (H1 Hi) as [Hi1 He]. destruct (H2 Hi1) as [Hi2 _]. split; assumption. Qed.
  Lemma Rpos_rec2 r e r1 e' r2 : Rpos r (Some e) r1 -> Rpos r1 (Some e') r2 -> Rpos r (Some e') r2.
  Proof. intros H1 H2 Hi. destruct (H1 Hi) as [Hi1 _]. exact (H2 Hi1). Qed.

  Lemma Rpos_inv r x r' : (forall c l cl, x <> Some (ESyntax c l cl)) -> (inv r -> inv r') -> Rpos r x r'.
  Proof. intros Hx H Hi. split; [auto|]. intros c l cl E. exfalso. eapply Hx; exact E. Qed.

  Lemma inv_same_bytes r r' : bytes_in (rinput r') = bytes_in (rinput r) -> rline r' = rline r -> rcol r' = rcol r ->
    inv r -> inv r'.
  Proof. intros Hb Hl Hc (consumed & HW & Hp). exists consumed. rewrite Hb, Hl, Hc. auto. Qed.

  Lemma inv_consume r b l : bytes_in (rinput r) = b :: bytes_in l -> inv r -> inv (consume r b l).
  Proof.
    intros Hb (consumed & HW & Hp).
    exists (consumed ++ [b]). unfold consume. destruct (advance (rline r) (rcol r) b) as [ln cl] eqn:Ea. cbn [rinput rline rcol].
    split.
    - rewrite HW, Hb, <- app_assoc. reflexivity.
    - unfold pos_after. rewrite pos_from_app. fold (pos_after consumed). rewrite <- Hp. unfold pos_from, adv. cbn [fold_left fst snd].
      now rewrite Ea.
  Qed.

  Lemma sat_peek_pos : sat Rpos peek.
  Proof.
    intros r. unfold peek, r_peek, R. destruct (rpending r) eqn:Ep.
    - destruct (rinput r) as [|[b| |e] l]; apply Rpos_inv; try (intros; discriminate); auto.
    - pose proof (bytes_in_skip_intr (rinput r)) as Hn.
      destruct (skip_intr (rinput r)) as [|[b| |e] l] eqn:Es; cbn [fst snd erase];
        apply Rpos_inv; try (intros; discriminate); try (intros Hi; exact Hi);
        apply inv_same_bytes; cbn [rinput rline rcol]; try reflexivity; rewrite <- Hn; reflexivity.
  Qed.

  Lemma sat_next_pos : sat Rpos next_char.
  Proof.
    intros r. unfold next_char, r_next, R.
    assert (Hn : bytes_in (if rpending r then rinput r else skip_intr (rinput r)) = bytes_in (rinput r)).
    { destruct (rpending r); [reflexivity|apply bytes_in_skip_intr]. }
    destruct (if rpending r then rinput r else skip_intr (rinput r)) as [|[b| |e] l]; cbn [fst snd erase];
      apply Rpos_inv; try (intros; discriminate); try (intros Hi; exact Hi).
    - apply inv_same_bytes; cbn [rinput rline rcol]; try reflexivity. rewrite <- Hn. reflexivity.
    - apply inv_consume. rewrite <- Hn. reflexivity.
    - apply inv_same_bytes; cbn [rinput rline rcol]; try reflexivity. rewrite <- Hn. reflexivity.
  Qed.

  Lemma inv_discard r : inv r -> inv (r_discard r).
  Proof.
    intros Hi. unfold r_discard. destruct (rk r); try destruct (rpending r); try exact Hi;
      destruct (rinput r) as [|[b| |e] l] eqn:E; try exact Hi; (apply inv_consume; [rewrite E; reflexivity|exact Hi]).
  Qed.

  Lemma sat_eat_pos : sat Rpos eat_char.
  Proof. intros r. unfold eat_char, R. cbn [fst snd erase]. apply Rpos_inv; [intros; discriminate|apply inv_discard]. Qed.

  Lemma position_prefix r : inv r -> prefix_pos (rline r) (rcol r).
  Proof. intros (consumed & HW & Hp). exists consumed, (bytes_in (rinput r)). auto. Qed.

  Lemma peek_position_prefix r : inv r -> prefix_pos (fst (r_peek_position r)) (snd (r_peek_position r)).
  Proof.
    intros Hi. pose proof (position_prefix r Hi) as Hcur.
    assert (Hnext : forall b l, rinput r = EByte b :: l ->
              prefix_pos (fst (advance (rline r) (rcol r) b)) (snd (advance (rline r) (rcol r) b))).
    { intros b l E. destruct Hi as (consumed & HW & Hp). exists (consumed ++ [b]), (bytes_in l). split.
      - rewrite HW, E, <- app_assoc. reflexivity.
      - unfold pos_after. rewrite pos_from_app. fold (pos_after consumed). rewrite <- Hp.
        unfold pos_from, adv. cbn [fold_left fst snd]. destruct (advance (rline r) (rcol r) b); reflexivity. }
    unfold r_peek_position. destruct (rk r); try destruct (rpending r); try exact Hcur;
      destruct (rinput r) as [|[b| |e] l] eqn:E; try exact Hcur; eapply Hnext; reflexivity.
  Qed.

  Lemma sat_error_pos A c : sat Rpos (@error A c).
  Proof.
    intros r. unfold error, R, r_position. cbn [fst snd erase]. intros Hi. split; [exact Hi|].
    intros c' l cl E. inversion E; subst. apply position_prefix. exact Hi.
  Qed.
  Lemma sat_peek_error_pos A c : sat Rpos (@peek_error A c).
  Proof.
    intros r. unfold peek_error, R. pose proof (peek_position_prefix r) as Hp.
    destruct (r_peek_position r) as [l0 cl0]. cbn [fst snd erase] in *. intros Hi. split; [exact Hi|].
    intros c' l cl E. inversion E; subst. apply Hp. exact Hi.
  Qed.
  Lemma sat_error_consume_pos A c : sat Rpos (@error_consume A c).
  Proof.
    intros r. unfold error_consume, peek_error, R. pose proof (peek_position_prefix r) as Hp.
    destruct (r_peek_position r) as [l0 cl0]. cbn [fst snd erase] in *. intros Hi. split; [apply inv_discard; exact Hi|].
    intros c' l cl E. inversion E; subst. apply Hp. exact Hi.
  Qed.

  Lemma span_plain_bytes l : forall acc, exists run,
    fst (span_plain l acc) = acc ++ run /\ bytes_in l = run ++ bytes_in (snd (span_plain l acc)).
  Proof.
    induction l as [|[b| |e] l IH]; intros acc; cbn [span_plain]; try (exists []; rewrite app_nil_r; split; reflexivity).
    destruct ((b =? 92) || (b =? 34))%bool; [exists []; rewrite app_nil_r; split; reflexivity|].
    destruct (IH (acc ++ [b])) as (run & E1 & E2). exists (b :: run). rewrite E1, <- app_assoc. split; [reflexivity|].
    change (bytes_in (EByte b :: l)) with (b :: bytes_in l). rewrite E2. reflexivity.
  Qed.
  Lemma span_symbol_bytes l : forall acc, exists run,
    fst (span_symbol l acc) = acc ++ run /\ bytes_in l = run ++ bytes_in (snd (span_symbol l acc)).
  Proof.
    induction l as [|[b| |e] l IH]; intros acc; cbn [span_symbol]; try (exists []; rewrite app_nil_r; split; reflexivity).
    destruct (is_symbol_terminator b); [exists []; rewrite app_nil_r; split; reflexivity|].
    destruct (IH (acc ++ [b])) as (run & E1 & E2). exists (b :: run). rewrite E1, <- app_assoc. split; [reflexivity|].
    change (bytes_in (EByte b :: l)) with (b :: bytes_in l). rewrite E2. reflexivity.
  Qed.

  Lemma inv_advance_over r run rest : bytes_in (rinput r) = run ++ bytes_in rest -> inv r -> inv (advance_over r run rest).
  Proof.
    intros Hb (consumed & HW & Hp). exists (consumed ++ run). unfold advance_over.
    destruct (fold_left _ run (rline r, rcol r)) as [ln cl] eqn:Ef. cbn [rinput rline rcol]. split.
    - rewrite HW, Hb, <- app_assoc. reflexivity.
    - unfold pos_after. rewrite pos_from_app. fold (pos_after consumed). rewrite <- Hp. unfold pos_from, adv. now rewrite Ef.
  Qed.

  Lemma sat_take_run_pos : sat Rpos take_run.
  Proof.
    intros r. unfold take_run, R. destruct (span_plain_bytes (rinput r) []) as (run & E1 & E2).
    destruct (span_plain (rinput r) []) as [run' rest]. cbn [fst snd app] in E1, E2. subst run'.
    destruct rest as [|[b| |e] rest']; cbn [fst snd erase]; apply Rpos_inv; try (intros; discriminate); intros Hi.
    - apply inv_advance_over; assumption.
    - apply inv_consume; [unfold advance_over; destruct (fold_left _ _ _); reflexivity|].
      apply inv_advance_over; assumption.
    - apply inv_advance_over; assumption.
    - apply inv_advance_over; assumption.
  Qed.
  Lemma sat_take_symbol_pos : sat Rpos take_symbol_run.
  Proof.
    intros r. unfold take_symbol_run, R. destruct (span_symbol_bytes (rinput r) []) as (run & E1 & E2).
    destruct (span_symbol (rinput r) []) as [run' rest]. cbn [fst snd app] in E1, E2. subst run'.
    cbn [fst snd erase]. apply Rpos_inv; [intros; discriminate|]. intros Hi. apply inv_advance_over; assumption.
  Qed.

  Section Parse.
    Variable ro : parse_options.
    Variable alpha : N -> bool.
    Variable fast : bool.
    Variable std_parse : N -> Z -> f64.

    Definition pos_values := psat_values Rpos Rpos_ret Rpos_seq Rpos_fuel sat_peek_pos sat_next_pos sat_eat_pos sat_error_pos
      sat_peek_error_pos sat_error_consume_pos sat_take_run_pos sat_take_symbol_pos fast std_parse ro alpha Rpos_rec1 Rpos_rec2.
    Definition pos_datums := psat_datums Rpos Rpos_ret Rpos_seq Rpos_fuel sat_peek_pos sat_next_pos sat_eat_pos sat_error_pos
      sat_peek_error_pos sat_error_consume_pos sat_take_run_pos sat_take_symbol_pos fast std_parse ro alpha Rpos_rec1 Rpos_rec2.

    Definition pos_expect_value := psat_expect_value Rpos Rpos_ret Rpos_seq Rpos_fuel sat_peek_pos sat_next_pos sat_eat_pos sat_error_pos
      sat_peek_error_pos sat_error_consume_pos sat_take_run_pos sat_take_symbol_pos fast std_parse ro alpha Rpos_rec1 Rpos_rec2.
    Definition pos_expect_datum := psat_expect_datum Rpos Rpos_ret Rpos_seq Rpos_fuel sat_peek_pos sat_next_pos sat_eat_pos sat_error_pos
      sat_peek_error_pos sat_error_consume_pos sat_take_run_pos sat_take_symbol_pos fast std_parse ro alpha Rpos_rec1 Rpos_rec2.
    Definition pos_expect_end := psat_expect_end Rpos Rpos_ret Rpos_seq Rpos_fuel sat_peek_pos sat_next_pos sat_eat_pos sat_peek_error_pos.

    Lemma psat_pos_bind {A B} (m : PM A) (f : A -> PM B) :
      psat Rpos m -> (forall a, psat Rpos (f a)) -> psat Rpos (pbind m f).
    Proof. apply (psat_bind Rpos Rpos_seq). Qed.

    Theorem next_value_positions fuel s : inv (rd s) ->
      let '(x, s') := next_value ro alpha fast std_parse fuel s in
      inv (rd s') /\ (forall c l cl, x = PErr (XErr (ESyntax c l cl)) -> prefix_pos l cl).
    Proof.
      intros Hi. pose proof (proj1 (pos_values fuel) s Hi) as H.
      destruct (next_value ro alpha fast std_parse fuel s) as [x s']. cbn [fst snd] in H.
      destruct H as [H1 H2]. split; [exact H1|]. intros c l cl ->. eapply H2. reflexivity.
    Qed.
    Theorem next_datum_positions fuel s : inv (rd s) ->
      let '(x, s') := next_datum ro alpha fast std_parse fuel s in
      inv (rd s') /\ (forall c l cl, x = PErr (XErr (ESyntax c l cl)) -> prefix_pos l cl).
    Proof.
      intros Hi. pose proof (proj1 (pos_datums fuel) s Hi) as H.
      destruct (next_datum ro alpha fast std_parse fuel s) as [x s']. cbn [fst snd] in H.
      destruct H as [H1 H2]. split; [exact H1|]. intros c l cl ->. eapply H2. reflexivity.
    Qed.
  End Parse.
End Positions.

(* lengths of the lines of w, the first one continuing a line that already has [cur] bytes *)
Fixpoint line_lens (w : bytes) (cur : N) : list N :=
  match w with
  | [] => [cur]
  | b :: w' => if b =? 10 then cur :: line_lens w' 0 else line_lens w' (cur + 1)
  end.

Lemma line_lens_hd w : forall cur, exists len rest, line_lens w cur = len :: rest /\ cur <= len.
Proof.
  induction w as [|b w IH]; intros cur; cbn [line_lens].
  - exists cur, []. split; [reflexivity|lia].
  - destruct (b =? 10).
    + exists cur, (line_lens w 0). split; [reflexivity|lia].
    + destruct (IH (cur + 1)) as (len & rest & E & H). exists len, rest. split; [exact E|lia].
Qed.

Lemma pos_from_in_lines p : forall q l0 c0,
  let '(l, c) := pos_from (l0, c0) p in
  l0 <= l /\ exists len, nth_error (line_lens (p ++ q) c0) (N.to_nat (l - l0)) = Some len /\ c <= len.
Proof.
  induction p as [|b p IH]; intros q l0 c0.
  - cbn [pos_from fold_left app]. split; [lia|]. destruct (line_lens_hd q c0) as (len & rest & E & H).
    exists len. rewrite E. replace (N.to_nat (l0 - l0)) with 0%nat by lia. split; [reflexivity|exact H].
  - unfold pos_from. cbn [fold_left app line_lens]. unfold adv at 2. cbn [fst snd]. unfold advance.
    destruct (b =? 10).
    + specialize (IH q (l0 + 1) 0). unfold pos_from in IH. destruct (fold_left adv p (l0 + 1, 0)) as [l c].
      destruct IH as (Hl & len & E & Hc). split; [lia|]. exists len. split; [|exact Hc].
      replace (N.to_nat (l - l0)) with (S (N.to_nat (l - (l0 + 1)))) by lia. exact E.
    + specialize (IH q l0 (c0 + 1)). unfold pos_from in IH. destruct (fold_left adv p (l0, c0 + 1)) as [l c].
      exact IH.
Qed.

(* 1-based line within the lines of the text, column at most that line's length *)
Definition in_bounds (W : bytes) (l cl : N) : Prop :=
  1 <= l /\ exists len, nth_error (line_lens W 0) (N.to_nat (l - 1)) = Some len /\ cl <= len.

Theorem prefix_pos_in_bounds W l cl : prefix_pos W l cl -> in_bounds W l cl.
Proof.
  intros (p & q & HW & Hp). pose proof (pos_from_in_lines p q 1 0) as H. unfold pos_after in Hp. rewrite <- Hp in H.
  rewrite <- HW in H. exact H.
Qed.

Lemma inv_init W k inp : W = bytes_in inp -> inv W (mk_reader k inp).
Proof. intros ->. exists []. split; reflexivity. Qed.

(* one value or datum, then the end of the input: the shape of both entry points *)
Lemma whole_positions {A} (m : nat -> PM A) k inp c l cl :
  (forall fuel, psat (Rpos (bytes_in inp)) (m fuel)) ->
  fst (pbind (m (fuel_for inp)) (fun v => pbind (expect_end_p (fuel_for inp)) (fun _ => pret v)) (init_state k inp))
    = PErr (XErr (ESyntax c l cl)) -> in_bounds (bytes_in inp) l cl.
Proof.
  intros Hm E. apply prefix_pos_in_bounds. set (W := bytes_in inp) in *.
  assert (Hp : psat (Rpos W) (pbind (m (fuel_for inp)) (fun v => pbind (expect_end_p (fuel_for inp)) (fun _ => pret v)))).
  { apply (psat_pos_bind W); [apply Hm|]. intros v.
    apply (psat_pos_bind W); [apply pos_expect_end|intros _; apply psat_pret, Rpos_ret]. }
  specialize (Hp (init_state k inp) (inv_init W k inp eq_refl)). rewrite E in Hp. destruct Hp as [_ H]. eapply H. reflexivity.
Qed.

Theorem from_trait_positions ro alpha fast std_parse k inp c l cl :
  from_trait ro alpha fast std_parse k inp = PErr (XErr (ESyntax c l cl)) -> in_bounds (bytes_in inp) l cl.
Proof. apply (whole_positions (expect_value ro alpha fast std_parse)). intros fuel. apply pos_expect_value. Qed.

Theorem datum_from_trait_positions ro alpha fast std_parse k inp c l cl :
  datum_from_trait ro alpha fast std_parse k inp = PErr (XErr (ESyntax c l cl)) -> in_bounds (bytes_in inp) l cl.
Proof. apply (whole_positions (expect_datum ro alpha fast std_parse)). intros fuel. apply pos_expect_datum. Qed.
