(* C11 (proved part): every span stored in a datum returned by next_datum is
   either the documented empty placeholder or a pair of positions, each the
   position after a prefix of the input (hence in bounds), with start <= end,
   and lies within the extent of the call that produced it; the elements of a
   list or vector lie in order inside its span; and every span handed out covers
   at least one byte. One walk of the datum parser (datums_good) shows all three. *)
From Coq Require Import SpecFloat Lia ZifyBool ZifyNat ZifyN.
Require Import Base Value Float PrintOptions ParseOptions Utf8 Reader Scan Num NumberOps Parser.
Require Import RelFramework PositionProofs DepthBoundProofs.

Definition rpos (r : reader) : N * N := (rline r, rcol r).
Definition pos_le (p q : N * N) : Prop := fst p < fst q \/ (fst p = fst q /\ snd p <= snd q).

Lemma pos_le_refl p : pos_le p p.
Proof. right. split; [reflexivity|lia]. Qed.
Lemma pos_le_trans p q r : pos_le p q -> pos_le q r -> pos_le p r.
Proof. unfold pos_le. intros [H1|[H1 H2]] [H3|[H3 H4]]; [left; lia|left; lia|left; lia|right; lia]. Qed.

Lemma advance_le l c b : pos_le (l, c) (advance l c b).
Proof. unfold advance, pos_le. destruct (b =? 10); cbn [fst snd]; lia. Qed.

Lemma fold_advance_le bs : forall p, pos_le p (fold_left (fun q b => advance (fst q) (snd q) b) bs p).
Proof.
  induction bs as [|b bs IH]; intros p; cbn [fold_left]; [apply pos_le_refl|].
  eapply pos_le_trans; [|apply IH]. destruct p as [l c]. apply advance_le.
Qed.

Definition Rmono (r : reader) (x : option perr) (r' : reader) : Prop := pos_le (rpos r) (rpos r').

Lemma Rmono_ret r : Rmono r None r.  Proof. apply pos_le_refl. Qed.
Lemma Rmono_seq r r1 x r2 : Rmono r None r1 -> Rmono r1 x r2 -> Rmono r x r2.
Proof. apply pos_le_trans. Qed.
Lemma Rmono_fuel r : Rmono r (Some EFuel) r.  Proof. apply pos_le_refl. Qed.
Lemma Rmono_rec1 r e r1 x r2 : Rmono r (Some e) r1 -> Rmono r1 x r2 -> Rmono r (Some e) r2.
Proof. apply pos_le_trans. Qed.
Lemma Rmono_rec2 r e r1 e' r2 : Rmono r (Some e) r1 -> Rmono r1 (Some e') r2 -> Rmono r (Some e') r2.
Proof. apply pos_le_trans. Qed.

Lemma consume_mono r b l : pos_le (rpos r) (rpos (consume r b l)).
Proof. unfold consume, rpos. pose proof (advance_le (rline r) (rcol r) b) as H. destruct (advance (rline r) (rcol r) b). exact H. Qed.
Lemma discard_mono r : pos_le (rpos r) (rpos (r_discard r)).
Proof.
  unfold r_discard. destruct (rk r); try destruct (rpending r); try apply pos_le_refl;
    destruct (rinput r) as [|[b| |e] l]; try apply pos_le_refl; apply consume_mono.
Qed.
Lemma advance_over_mono r bs rest : pos_le (rpos r) (rpos (advance_over r bs rest)).
Proof.
  unfold advance_over, rpos. pose proof (fold_advance_le bs (rline r, rcol r)) as H.
  destruct (fold_left _ bs (rline r, rcol r)). exact H.
Qed.

Lemma mono_peek : sat Rmono peek.
Proof.
  intros r. unfold peek, r_peek, R, Rmono. destruct (rpending r).
  - destruct (rinput r) as [|[b| |e] l]; apply pos_le_refl.
  - destruct (skip_intr (rinput r)) as [|[b| |e] l]; apply pos_le_refl.
Qed.
Lemma mono_next : sat Rmono next_char.
Proof.
  intros r. unfold next_char, r_next, R, Rmono.
  destruct (if rpending r then rinput r else skip_intr (rinput r)) as [|[b| |e] l]; cbn [fst snd]; try apply pos_le_refl.
  apply consume_mono.
Qed.
Lemma mono_eat : sat Rmono eat_char.
Proof. intros r. unfold eat_char, R, Rmono. cbn [fst snd]. apply discard_mono. Qed.
Lemma mono_error A c : sat Rmono (@error A c).
Proof. intros r. unfold error, R, Rmono. destruct (r_position r). apply pos_le_refl. Qed.
Lemma mono_peek_error A c : sat Rmono (@peek_error A c).
Proof. intros r. unfold peek_error, R, Rmono. destruct (r_peek_position r). apply pos_le_refl. Qed.
Lemma mono_error_consume A c : sat Rmono (@error_consume A c).
Proof. intros r. unfold error_consume, peek_error, R, Rmono. destruct (r_peek_position r). cbn [fst snd]. apply discard_mono. Qed.
Lemma mono_take_run : sat Rmono take_run.
Proof.
  intros r. unfold take_run, R, Rmono. destruct (span_plain (rinput r) []) as [run rest].
  destruct rest as [|[b| |e] rest']; cbn [fst snd]; try apply advance_over_mono.
  eapply pos_le_trans; [apply advance_over_mono|apply consume_mono].
Qed.
Lemma mono_take_symbol : sat Rmono take_symbol_run.
Proof.
  intros r. unfold take_symbol_run, R, Rmono. destruct (span_symbol (rinput r) []) as [run rest].
  cbn [fst snd]. apply advance_over_mono.
Qed.

Definition pos_lt (p q : N * N) : Prop := fst p < fst q \/ (fst p = fst q /\ snd p < snd q).
Lemma pos_lt_le_trans p q r : pos_lt p q -> pos_le q r -> pos_lt p r.
Proof. unfold pos_lt, pos_le. intros [H1|[H1 H2]] [H3|[H3 H4]]; [left; lia|left; lia|left; lia|right; lia]. Qed.
Lemma pos_lt_le p q : pos_lt p q -> pos_le p q.
Proof. unfold pos_lt, pos_le. intros [H|[H1 H2]]; [left; exact H|right; lia]. Qed.

Lemma pos_le_lt_trans p q r : pos_le p q -> pos_lt q r -> pos_lt p r.
Proof. unfold pos_lt, pos_le. intros [H1|[H1 H2]] [H3|[H3 H4]]; [left; lia|left; lia|left; lia|right; lia]. Qed.
Create HintDb posdb.
#[local] Hint Resolve pos_le_refl pos_le_trans pos_lt_le_trans pos_le_lt_trans : posdb.
Lemma advance_lt l c b : pos_lt (l, c) (advance l c b).
Proof. unfold advance, pos_lt. destruct (b =? 10); cbn [fst snd]; lia. Qed.

Definition rlt (r r' : reader) : Prop := pos_lt (rpos r) (rpos r').

Lemma consume_lt r b l : rlt r (consume r b l).
Proof. unfold rlt, consume, rpos. pose proof (advance_lt (rline r) (rcol r) b) as H. destruct (advance (rline r) (rcol r) b). exact H. Qed.

Lemma rlt_then r r1 r2 : rlt r r1 -> Rmono r1 None r2 -> rlt r r2.
Proof. unfold rlt, Rmono. apply pos_lt_le_trans. Qed.

Lemma rlt_eat b : strict rlt b eat_char.
Proof.
  intros r [Hp [l Hl]]. unfold eat_char, r_discard. rewrite Hp, Hl. destruct (rk r); apply consume_lt.
Qed.
Lemma rlt_next b : strict rlt b next_char.
Proof. intros r [Hp [l Hl]]. unfold next_char, r_next. rewrite Hp, Hl. apply consume_lt. Qed.

Lemma fold_advance_lt bs b p : pos_lt p (fold_left (fun q c => advance (fst q) (snd q) c) (b :: bs) p).
Proof.
  cbn [fold_left]. eapply pos_lt_le_trans; [|apply fold_advance_le]. destruct p as [l c]. apply advance_lt.
Qed.

(* A symbol scanned from a pending non-terminator byte makes strict progress in
   any order that eating the byte, and advancing over the slice scanned from it,
   move forward in, and that the steps related by R0 preserve. *)
Section StrictSymbol.
  Variable R0 : reader -> option perr -> reader -> Prop.
  Variable lt0 : reader -> reader -> Prop.
  Hypothesis R0_ret : forall r, R0 r None r.
  Hypothesis R0_seq : forall r r1 x r2, R0 r None r1 -> R0 r1 x r2 -> R0 r x r2.
  Hypothesis R0_fuel : forall r, R0 r (Some EFuel) r.
  Hypothesis R0_peek : sat R0 peek.
  Hypothesis R0_eat : sat R0 eat_char.
  Hypothesis R0_error : forall A c, sat R0 (@error A c).
  Hypothesis lt0_then : forall r r1 r2, lt0 r r1 -> R0 r1 None r2 -> lt0 r r2.
  Hypothesis lt0_eat : forall b, strict lt0 b eat_char.
  Hypothesis lt0_advance : forall r b l, rinput r = EByte b :: l ->
    lt0 r (advance_over r (fst (span_symbol l [b])) (snd (span_symbol l [b]))).

  Lemma strict_symbol_rd b fuel scratch : is_symbol_terminator b = false -> strict lt0 b (parse_symbol_rd fuel scratch).
  Proof.
    intros Hb r [Hp [l Hl]]. unfold parse_symbol_rd.
    assert (Hio : match (x <- scan_symbol_io fuel scratch ;; Scan.as_str x) r with (Ok _, r') => lt0 r r' | (Err _, _) => True end).
    { destruct fuel as [|f]; [exact I|]. cbn [scan_symbol_io].
      unfold bind at 1. unfold bind at 1. unfold peek, r_peek. rewrite Hp, Hl. rewrite Hb.
      unfold bind at 1. unfold eat_char. cbn [fst snd].
      assert (Hd : lt0 r (r_discard r)) by (pose proof (lt0_eat b r (conj Hp (ex_intro _ l Hl))) as H; unfold eat_char in H; exact H).
      pose proof (sat_scan_symbol_io R0 R0_ret R0_seq R0_fuel R0_peek R0_eat R0_error f (scratch ++ [b]) (r_discard r)) as Hs.
      unfold R in Hs. destruct (scan_symbol_io f (scratch ++ [b]) (r_discard r)) as [[x|e] r1]; cbn [fst snd erase] in *; [|exact I].
      pose proof (sat_as_str R0 R0_ret R0_error x r1) as Ha. unfold R in Ha.
      destruct (Scan.as_str x r1) as [[y|e] r2]; cbn [fst snd erase] in *; [|exact I].
      exact (lt0_then _ _ _ (lt0_then _ _ _ Hd Hs) Ha). }
    assert (Hsl : match (x <- scan_symbol_slice scratch ;; finish_str x) r with (Ok _, r') => lt0 r r' | (Err _, _) => True end).
    { unfold bind at 1. unfold scan_symbol_slice. rewrite Hl. cbn [span_symbol app]. rewrite Hb.
      pose proof (lt0_advance r b l Hl) as Hd. destruct (span_symbol l [b]) as [scanned rest]. cbn [fst snd] in Hd.
      set (r1 := advance_over r scanned rest) in *.
      destruct (_ && _); [unfold error; destruct (r_position r1); exact I|].
      destruct (beq_bytes _ _); [unfold error; destruct (r_position r1); exact I|]. unfold ret.
      pose proof (sat_finish_str R0 R0_ret R0_error (scratch ++ scanned) r1) as Ha. unfold R in Ha.
      destruct (finish_str (scratch ++ scanned) r1) as [[y|e] r2]; cbn [fst snd erase] in *; [|exact I].
      exact (lt0_then _ _ _ Hd Ha). }
    destruct (rk r); [exact Hsl|exact Hsl|exact Hio].
  Qed.
End StrictSymbol.

Lemma rlt_advance r b l : rinput r = EByte b :: l -> rlt r (advance_over r (fst (span_symbol l [b])) (snd (span_symbol l [b]))).
Proof.
  intros _. destruct (span_symbol_bytes l [b]) as (more & Em & _). destruct (span_symbol l [b]) as [scanned rest]. cbn [fst snd app] in *. subst scanned.
  unfold rlt, advance_over, rpos. pose proof (fold_advance_lt more b (rline r, rcol r)) as H.
  destruct (fold_left _ (b :: more) (rline r, rcol r)). exact H.
Qed.

Theorem token_strict ro alpha fast std_parse fuel b r : at_byte b r ->
  match parse_token ro alpha fast std_parse fuel b r with
  | (Ok _, r') => pos_lt (rpos r) (rpos r')
  | (Err _, _) => True
  end.
Proof.
  exact (strict_parse_token Rmono Rmono_ret Rmono_seq Rmono_fuel mono_peek mono_next mono_eat mono_error mono_peek_error
           mono_take_run mono_take_symbol fast std_parse ro alpha rlt rlt_then rlt_eat rlt_next
           (strict_symbol_rd Rmono rlt Rmono_ret Rmono_seq Rmono_fuel mono_peek mono_eat mono_error rlt_then rlt_eat rlt_advance) fuel b r).
Qed.

Lemma ws_at_byte fuel : forall r, match parse_whitespace fuel r with (Ok (Some b), r') => at_byte b r' | _ => True end.
Proof.
  induction fuel as [|f IH]; intros r; [exact I|]. cbn [parse_whitespace]. unfold bind at 1.
  unfold peek, r_peek. destruct (rpending r) eqn:Hp.
  - destruct (rinput r) as [|[c| |e] l] eqn:Hl; try exact I.
    destruct (c =? 59).
    + unfold bind. destruct (skip_comment f r) as [[[|]|e] r1]; try exact I. apply IH.
    + destruct (memb c [32; 10; 9; 13; 12]); [unfold bind, eat_char; apply IH|].
      unfold ret. split; [exact Hp|exists l; exact Hl].
  - destruct (skip_intr (rinput r)) as [|[c| |e] l] eqn:Hl; try exact I.
    set (r1 := {| rk := rk r; rline := rline r; rcol := rcol r; rpending := true; rinput := EByte c :: l |}).
    destruct (c =? 59).
    + unfold bind. destruct (skip_comment f r1) as [[[|]|e] r2]; try exact I. apply IH.
    + destruct (memb c [32; 10; 9; 13; 12]); [unfold bind, eat_char; apply IH|].
      unfold ret. split; [reflexivity|exists l; reflexivity].
Qed.

Section Spans.
  Variable W : bytes.

  Definition real (lo hi : N * N) (sp : span) : Prop :=
    prefix_pos W (fst (sp_start sp)) (snd (sp_start sp)) /\ prefix_pos W (fst (sp_end sp)) (snd (sp_end sp)) /\
    pos_le lo (sp_start sp) /\ pos_le (sp_start sp) (sp_end sp) /\ pos_le (sp_end sp) hi.
  Definition sp_ok (lo hi : N * N) (sp : span) : Prop := sp = span_empty \/ real lo hi sp.

  Fixpoint all_spans (P : span -> Prop) (i : span_info) : Prop :=
    match i with
    | SPrim sp => P sp
    | SCons sp a d => P sp /\ all_spans P a /\ all_spans P d
    | SVec sp l => P sp /\ (fix all (l : list span_info) : Prop :=
                              match l with [] => True | x :: l' => all_spans P x /\ all l' end) l
    end.
  Definition all_infos (P : span -> Prop) : list span_info -> Prop :=
    fix all (l : list span_info) : Prop := match l with [] => True | x :: l' => all_spans P x /\ all l' end.

  Definition dok (lo hi : N * N) (d : datum) : Prop :=
    all_spans (sp_ok lo hi) (dinfo d) /\ real lo hi (info_span (dinfo d)).

  Lemma real_widen lo hi lo' hi' sp : pos_le lo' lo -> pos_le hi hi' -> real lo hi sp -> real lo' hi' sp.
  Proof. intros H1 H2 (A & B & C & D & E). repeat split; auto; eapply pos_le_trans; eauto. Qed.
  Lemma sp_ok_widen lo hi lo' hi' sp : pos_le lo' lo -> pos_le hi hi' -> sp_ok lo hi sp -> sp_ok lo' hi' sp.
  Proof. intros H1 H2 [H|H]; [left; exact H|right; eapply real_widen; eauto]. Qed.

  Lemma all_spans_impl (P Q : span -> Prop) i : (forall sp, P sp -> Q sp) -> all_spans P i -> all_spans Q i.
  Proof.
    intros HPQ. revert i. fix IH 1. intros [sp|sp a d|sp l]; cbn [all_spans].
    - apply HPQ.
    - intros (H1 & H2 & H3). repeat split; auto.
    - intros [H1 H2]. split; [auto|]. induction l as [|x l IHl]; [exact I|]. destruct H2 as [Hx Hl]. split; [apply IH; exact Hx|apply IHl; exact Hl].
  Qed.

  Lemma dok_widen lo hi lo' hi' d : pos_le lo' lo -> pos_le hi hi' -> dok lo hi d -> dok lo' hi' d.
  Proof.
    intros H1 H2 [Ha Hr]. split; [|eapply real_widen; eauto].
    eapply all_spans_impl; [|exact Ha]. intros sp. apply sp_ok_widen; assumption.
  Qed.

  Definition Jd {A} (m : PM A) (post : N * N -> A -> N * N -> Prop) : Prop :=
    forall s, inv W (rd s) ->
      match m s with
      | (POk a, s') => inv W (rd s') /\ pos_le (rpos (rd s)) (rpos (rd s')) /\ post (rpos (rd s)) a (rpos (rd s'))
      | (PErr _, _) => True
      end.

  Lemma Jd_bind {A B} (m : PM A) (f : A -> PM B) p q :
    Jd m p -> (forall a, Jd (f a) (q a)) ->
    Jd (pbind m f) (fun lo b hi => exists a mid, p lo a mid /\ q a mid b hi /\ pos_le lo mid /\ pos_le mid hi).
  Proof.
    intros Hm Hf s Hi. rewrite pbind_unfold. specialize (Hm s Hi). destruct (m s) as [[a|e] s1]; [|exact I].
    destruct Hm as (Hi1 & Hle1 & Hp). specialize (Hf a s1 Hi1). destruct (f a s1) as [[b|e] s2]; [|exact I].
    destruct Hf as (Hi2 & Hle2 & Hq). split; [exact Hi2|]. split; [eapply pos_le_trans; eauto|].
    exists a, (rpos (rd s1)). auto.
  Qed.
  Lemma Jd_weaken {A} (m : PM A) (p q : N * N -> A -> N * N -> Prop) :
    (forall lo a hi, pos_le lo hi -> p lo a hi -> q lo a hi) -> Jd m p -> Jd m q.
  Proof. intros H Hm s Hi. specialize (Hm s Hi). destruct (m s) as [[a|e] s1]; [|exact I]. destruct Hm as (A1 & A2 & A3). auto. Qed.
  Lemma Jd_ret {A} (a : A) (q : N * N -> A -> N * N -> Prop) : (forall lo, q lo a lo) -> Jd (pret a) q.
  Proof. intros H s Hi. cbn. split; [exact Hi|]. split; [apply pos_le_refl|apply H]. Qed.
  Lemma Jd_fail {A} e (q : N * N -> A -> N * N -> Prop) : Jd (pfail e) q.
  Proof. intros s _. exact I. Qed.
  Lemma Jd_err {A} c (q : N * N -> A -> N * N -> Prop) : Jd (liftR (peek_error (A := A) c)) q.
  Proof. intros s _. unfold liftR, peek_error. destruct (r_peek_position (rd s)). exact I. Qed.

  Lemma Jd_liftR {A} (m : M A) : sat (Rpos W) m -> sat Rmono m -> Jd (liftR m) (fun _ _ _ => True).
  Proof.
    intros H1 H2 s Hi. unfold liftR. specialize (H1 (rd s) Hi). specialize (H2 (rd s)). unfold R, Rmono in *.
    destruct (m (rd s)) as [[a|e] r']; cbn [fst snd rd] in *; [|exact I]. destruct H1 as [H1 _]. auto.
  Qed.
  Lemma Jd_position : Jd (liftR position)
    (fun lo p hi => p = lo /\ hi = lo /\ prefix_pos W (fst lo) (snd lo)).
  Proof.
    intros s Hi. unfold liftR, position. cbn [fst snd rd]. split; [exact Hi|]. split; [apply pos_le_refl|].
    repeat split. apply position_prefix. exact Hi.
  Qed.

  Section Main.
    Variable ro : parse_options.
    Variable alpha : N -> bool.
    Variable fast : bool.
    Variable std_parse : N -> Z -> f64.
    Local Notation next_datum := (next_datum ro alpha fast std_parse).
    Local Notation parse_list_meta := (parse_list_meta ro alpha fast std_parse).
    Local Notation parse_vector_meta := (parse_vector_meta ro alpha fast std_parse).

    Definition Jd_any {A} (m : PM A) : Prop := Jd m (fun _ _ _ => True).

    Ltac both_sat lem := solve [ apply (lem (Rpos W)); first [exact (Rpos_ret W) | exact (Rpos_seq W) | exact (Rpos_fuel W)
        | exact (sat_peek_pos W) | exact (sat_next_pos W) | exact (sat_eat_pos W) | exact (sat_error_pos W) | exact (sat_peek_error_pos W)
        | exact (sat_error_consume_pos W) | exact (sat_take_run_pos W) | exact (sat_take_symbol_pos W) ] ].
    Ltac mono_sat lem := solve [ apply (lem Rmono); first [exact Rmono_ret | exact Rmono_seq | exact Rmono_fuel
        | exact mono_peek | exact mono_next | exact mono_eat | exact mono_error | exact mono_peek_error
        | exact mono_error_consume | exact mono_take_run | exact mono_take_symbol ] ].

    Lemma any_ws f : Jd_any (liftR (parse_whitespace f)).
    Proof. apply Jd_liftR; [both_sat sat_parse_whitespace|mono_sat sat_parse_whitespace]. Qed.
    Lemma any_token f b : Jd_any (liftR (parse_token ro alpha fast std_parse f b)).
    Proof. apply Jd_liftR; [both_sat sat_parse_token|mono_sat sat_parse_token]. Qed.
    Lemma any_byte_list f c : Jd_any (liftR (parse_byte_list fast std_parse f c)).
    Proof. apply Jd_liftR; [both_sat sat_parse_byte_list|mono_sat sat_parse_byte_list]. Qed.
    Lemma any_end_seq f c : Jd_any (liftR (end_seq f c)).
    Proof. apply Jd_liftR; [both_sat sat_end_seq|mono_sat sat_end_seq]. Qed.
    Lemma any_symbol_suffix f p : Jd_any (liftR (parse_symbol_suffix f p)).
    Proof. apply Jd_liftR; [both_sat sat_parse_symbol_suffix|mono_sat sat_parse_symbol_suffix]. Qed.
    Lemma any_peek : Jd_any (liftR peek).
    Proof. apply Jd_liftR; [exact (sat_peek_pos W)|exact mono_peek]. Qed.
    Lemma any_eat_peek : Jd_any (liftR (eat_char ;;; peek)).
    Proof.
      apply Jd_liftR.
      - apply (sat_bind (Rpos W) (Rpos_seq W)); [exact (sat_eat_pos W)|intros _; exact (sat_peek_pos W)].
      - apply (sat_bind Rmono Rmono_seq); [exact mono_eat|intros _; exact mono_peek].
    Qed.

    Lemma any_psat {A} (m : PM A) : psat (Rpos W) m -> psat Rmono m -> Jd_any m.
    Proof.
      intros H1 H2 s Hi. specialize (H1 s Hi). specialize (H2 s). unfold Rmono in H2.
      destruct (m s) as [[a|e] s']; cbn [fst snd perase] in *; [|exact I]. destruct H1 as [H1 _]. auto.
    Qed.
    Lemma any_enter : Jd_any enter_nesting.
    Proof.
      apply any_psat; [apply (psat_enter_nesting (Rpos W) (Rpos_ret W) (Rpos_seq W) (Rpos_fuel W) (sat_peek_error_pos W))
                    |apply (psat_enter_nesting Rmono Rmono_ret Rmono_seq Rmono_fuel mono_peek_error)].
    Qed.
    Lemma any_inc : Jd_any inc_depth.
    Proof.
      apply any_psat; [apply (psat_inc_depth (Rpos W) (Rpos_ret W) (Rpos_seq W) (Rpos_fuel W))
                    |apply (psat_inc_depth Rmono Rmono_ret Rmono_seq Rmono_fuel)].
    Qed.

    Lemma real_mk lo hi a b : prefix_pos W (fst a) (snd a) -> prefix_pos W (fst b) (snd b) ->
      pos_le lo a -> pos_le a b -> pos_le b hi -> real lo hi (mk_span a b).
    Proof. intros. unfold real, mk_span. cbn [sp_start sp_end]. auto. Qed.

    Lemma prim_dok lo hi v a b : real lo hi (mk_span a b) -> dok lo hi (prim_datum v a b).
    Proof. intros H. split; cbn [prim_datum dinfo all_spans info_span]; [right|]; exact H. Qed.

    Lemma root_ok lo hi d : dok lo hi d -> sp_ok lo hi (info_span (dinfo d)).
    Proof. intros [_ H]. right. exact H. Qed.

    Lemma chain_ok lo hi ms tail_meta : Forall (all_spans (sp_ok lo hi)) ms -> all_spans (sp_ok lo hi) tail_meta ->
      all_spans (sp_ok lo hi) (chain_meta ms tail_meta).
    Proof.
      induction 1 as [|m ms Hm Hms IH]; intros Ht; cbn [chain_meta]; [exact Ht|].
      cbn [all_spans]. split; [left; reflexivity|]. split; [exact Hm|apply IH; exact Ht].
    Qed.

    Lemma list_datum_dok lo hi ds tail a b : Forall (dok lo hi) ds ->
      match tail with Some t => dok lo hi t | None => True end -> real lo hi (mk_span a b) ->
      dok lo hi (list_datum (ds, tail) a b).
    Proof.
      intros Hds Ht Hr. destruct ds as [|d1 ds]; [apply prim_dok; exact Hr|].
      unfold list_datum. cbn [list_meta]. inversion Hds as [|? ? Hd1 Hrest]; subst.
      split; cbn [dinfo all_spans info_span]; [|exact Hr].
      split; [right; exact Hr|]. split; [apply Hd1|].
      apply chain_ok.
      - clear -Hrest. induction Hrest as [|x l [Hx _] _ IH]; cbn [map]; constructor; auto.
      - destruct tail as [t|]; [apply Ht|cbn [null_meta all_spans]; left; reflexivity].
    Qed.

    Lemma vector_dok lo hi els a b : Forall (dok lo hi) els -> real lo hi (mk_span a b) ->
      dok lo hi {| dvalue := Vector (map dvalue els); dinfo := SVec (mk_span a b) (map dinfo els) |}.
    Proof.
      intros Hels Hr. split; cbn [dinfo all_spans info_span]; [|exact Hr]. split; [right; exact Hr|].
      induction Hels as [|x l [Hx _] _ IH]; cbn [map]; auto.
    Qed.

    Lemma all_spans_root P i : all_spans P i -> P (info_span i).
    Proof. destruct i; cbn [all_spans info_span]; tauto. Qed.

    Lemma quotation_dok hi name quoted s0 s1 : dok s1 hi quoted ->
      prefix_pos W (fst s0) (snd s0) -> prefix_pos W (fst s1) (snd s1) -> pos_le s0 s1 ->
      dok s0 hi (quotation_datum name quoted (mk_span s0 s1)).
    Proof.
      intros [Hq (Q1 & Q2 & Q3 & Q4 & Q5)] P0 P1 L. unfold quotation_datum. cbv zeta.
      set (qi := dinfo quoted) in *. set (qend := sp_end (info_span qi)) in *.
      assert (Hroot : real s0 hi (mk_span s0 qend)) by (apply real_mk; eauto with posdb).
      assert (Hqw : all_spans (sp_ok s0 hi) qi).
      { eapply all_spans_impl; [|exact Hq]. intros sp. apply sp_ok_widen; [exact L|apply pos_le_refl]. }
      split; cbn [dinfo all_spans info_span sp_start mk_span]; [|exact Hroot].
      split; [right; exact Hroot|]. split; [right; apply real_mk; eauto with posdb|].
      split; [apply (all_spans_root _ _ Hqw)|]. split; [exact Hqw|].
      right. apply real_mk; eauto with posdb.
    Qed.

    Definition mono_lo {A} (q : N * N -> A -> N * N -> Prop) : Prop :=
      forall lo lo' a hi, pos_le lo' lo -> q lo a hi -> q lo' a hi.

    Lemma Jd_after {A B} (m : PM A) (f : A -> PM B) (q : N * N -> B -> N * N -> Prop) : Jd_any m -> mono_lo q -> (forall a, Jd (f a) q) -> Jd (pbind m f) q.
    Proof.
      intros Hm Hq Hf. eapply Jd_weaken; [|apply (Jd_bind m f _ (fun _ => q) Hm Hf)].
      intros lo b hi _ (a & mid & _ & Hqm & L1 & L2). eapply Hq; eauto.
    Qed.

    Lemma Jd_after_pos {B} (f : N * N -> PM B) (q : N * N -> B -> N * N -> Prop) :
      (forall p, Jd (f p) (fun lo b hi => p = lo -> prefix_pos W (fst p) (snd p) -> q lo b hi)) ->
      Jd (pbind (liftR position) f) q.
    Proof.
      intros Hf. eapply Jd_weaken; [|apply (Jd_bind _ f _ _ Jd_position Hf)].
      intros lo b hi _ (p & mid & (-> & -> & Hpre) & Hq & _ & _). apply Hq; auto.
    Qed.

    (* what may follow a nested body that established [p] of [a], wherever the body began and ended *)
    Definition inside {A B} (p : N * N -> A -> N * N -> Prop) (a : A) (Q : N * N -> B -> N * N -> Prop) : N * N -> B -> N * N -> Prop :=
      fun m2 b hi => forall lo lo1 m1, pos_le lo lo1 -> pos_le lo1 m1 -> pos_le m1 m2 -> p lo1 a m1 -> Q lo b hi.
    Lemma mono_inside {A B} p (a : A) (Q : N * N -> B -> N * N -> Prop) : mono_lo (inside p a Q).
    Proof. intros m m' b hi Hm H lo lo1 m1 L1 L2 L3. apply H; eauto with posdb. Qed.

    Lemma Jd_nest {A B} (body : PM A) (rest : res A -> PM B) p (Q : N * N -> B -> N * N -> Prop) :
      Jd body p -> (forall a, Jd (rest (Ok a)) (inside p a Q)) ->
      (forall e s, match rest (Err e) s with (POk _, _) => False | (PErr _, _) => True end) ->
      Jd (pbind enter_nesting (fun _ => pbind (attempt body) (fun r => pbind inc_depth (fun _ => rest r)))) Q.
    Proof.
      intros Hbody Hok Herr s Hi. rewrite pbind_unfold.
      pose proof (any_enter s Hi) as H0. destruct (enter_nesting s) as [[u|e] s1]; [|exact I]. destruct H0 as (Hi1 & L1 & _).
      rewrite pbind_unfold, attempt_unfold. specialize (Hbody s1 Hi1).
      destruct (body s1) as [[a|[e|pk]] s2]; [|specialize (Herr e); destruct e|exact I]; try exact I; rewrite pbind_unfold;
        pose proof (any_inc s2) as H3; destruct (inc_depth s2) as [[u3|e3] s3]; try exact I.
      1: { destruct Hbody as (Hi2 & L2 & Hp). destruct (H3 Hi2) as (Hi3 & L3 & _).
           specialize (Hok a s3 Hi3). destruct (rest (Ok a) s3) as [[b|e] s4]; [|exact I]. destruct Hok as (Hi4 & L4 & Hq).
           split; [exact Hi4|]. split; [eauto 6 with posdb|]. exact (Hq _ _ _ L1 L2 L3 Hp). }
      all: specialize (Herr s3); destruct (rest _ s3) as [[b|e4] s4]; [contradiction|exact I].
    Qed.

    Lemma Jd_nest_seq {A B} (body : PM A) (endm : M unit) (kk : A -> PM B) p (Q : N * N -> B -> N * N -> Prop) :
      Jd body p -> Jd_any (liftR endm) -> (forall a, Jd (kk a) (inside p a Q)) ->
      Jd (pbind enter_nesting (fun _ => pbind (attempt body) (fun r => pbind inc_depth (fun _ =>
            pbind (attempt (liftR endm)) (fun e => pbind (both r e) kk))))) Q.
    Proof.
      intros Hbody Hend Hkk.
      apply (Jd_nest body (fun r => pbind (attempt (liftR endm)) (fun e => pbind (both r e) kk)) p Q Hbody).
      - intros a s Hi. rewrite pbind_unfold, attempt_unfold. specialize (Hend s Hi).
        destruct (liftR endm s) as [[u|[e|pk]] s1]; [|destruct e|]; try exact I.
        destruct Hend as (Hi1 & L1 & _). rewrite pbind_unfold. cbn [both pret].
        specialize (Hkk a s1 Hi1). destruct (kk a s1) as [[b|e] s2]; [|exact I]. destruct Hkk as (Hi2 & L2 & Hq).
        split; [exact Hi2|]. split; [eauto with posdb|]. intros lo lo1 m1 A1 A2 A3. apply Hq; eauto with posdb.
      - intros e s. rewrite pbind_unfold, attempt_unfold.
        destruct (liftR endm s) as [[u|[e'|pk]] s1]; [|destruct e'|]; try exact I; rewrite pbind_unfold; exact I.
    Qed.

    Lemma Jd_nest_quote {A B} (body : PM A) (kk : A -> PM B) p (Q : N * N -> B -> N * N -> Prop) :
      Jd body p -> (forall a, Jd (kk a) (inside p a Q)) ->
      Jd (pbind enter_nesting (fun _ => pbind (attempt body) (fun r => pbind inc_depth (fun _ => pbind (lift r) kk)))) Q.
    Proof.
      intros Hbody Hkk. apply (Jd_nest body (fun r => pbind (lift r) kk) p Q Hbody).
      - intros a s. rewrite pbind_unfold. apply Hkk.
      - intros e s. rewrite pbind_unfold. exact I.
    Qed.

    Definition root_start (i : span_info) : N * N := sp_start (info_span i).
    Definition root_end (i : span_info) : N * N := sp_end (info_span i).

    Fixpoint seqb (lo hi : N * N) (l : list span_info) : Prop :=
      match l with
      | [] => pos_le lo hi
      | i :: l' => pos_le lo (root_start i) /\ pos_le (root_start i) (root_end i) /\ seqb (root_end i) hi l'
      end.

    Lemma seqb_le lo hi l : seqb lo hi l -> pos_le lo hi.
    Proof.
      revert lo. induction l as [|i l IH]; intros lo; cbn [seqb]; [auto|]. intros (H1 & H2 & H3%IH). eauto with posdb.
    Qed.
    Lemma seqb_widen lo hi lo' hi' l : pos_le lo' lo -> pos_le hi hi' -> seqb lo hi l -> seqb lo' hi' l.
    Proof.
      revert lo lo'. induction l as [|i l IH]; intros lo lo' H1 H2; cbn [seqb].
      - eauto with posdb.
      - intros (A & B & C). split; [eauto with posdb|]. split; [exact B|]. eapply IH; [apply pos_le_refl|exact H2|exact C].
    Qed.
    Lemma seqb_app lo mid hi l1 l2 : seqb lo mid l1 -> seqb mid hi l2 -> seqb lo hi (l1 ++ l2).
    Proof.
      revert lo. induction l1 as [|i l1 IH]; intros lo; cbn [seqb app].
      - intros H1 H2. eapply seqb_widen; [exact H1|apply pos_le_refl|exact H2].
      - intros (A & B & C) H2. split; [exact A|]. split; [exact B|]. apply IH; assumption.
    Qed.
    Lemma seqb_snoc lo mid hi l i : seqb lo mid l -> pos_le mid (root_start i) -> pos_le (root_start i) (root_end i) ->
      pos_le (root_end i) hi -> seqb lo hi (l ++ [i]).
    Proof. intros H1 H2 H3 H4. eapply seqb_app; [exact H1|]. cbn [seqb]. auto. Qed.
    Lemma seqb_expand lo hi l i cs : seqb lo hi (l ++ [i]) -> seqb (root_start i) (root_end i) cs -> seqb lo hi (l ++ cs).
    Proof.
      revert lo. induction l as [|x l IH]; intros lo; cbn [seqb app].
      - intros (A & B & C) H. eapply seqb_widen; [exact A|exact C|exact H].
      - intros (A & B & C) H. split; [exact A|]. split; [exact B|]. apply IH; assumption.
    Qed.
    Lemma seqb_drop_last lo hi l i : seqb lo hi (l ++ [i]) -> seqb lo hi l.
    Proof.
      revert lo. induction l as [|x l IH]; intros lo; cbn [seqb app].
      - intros H. apply (seqb_le lo hi [i]). exact H.
      - intros (A & B & C). split; [exact A|]. split; [exact B|]. apply IH. exact C.
    Qed.

    Lemma seqb_inside lo hi l i : seqb lo hi l -> In i l ->
      pos_le lo (root_start i) /\ pos_le (root_start i) (root_end i) /\ pos_le (root_end i) hi.
    Proof.
      revert lo. induction l as [|x l IH]; intros lo; cbn [seqb In]; [tauto|]. intros (A & B & C) [->|Hin].
      - repeat split; auto. apply (seqb_le _ _ _ C).
      - destruct (IH _ C Hin) as (P1 & P2 & P3). repeat split; eauto with posdb.
    Qed.
    Lemma seqb_adjacent lo hi l1 x y l2 : seqb lo hi (l1 ++ x :: y :: l2) -> pos_le (root_end x) (root_start y).
    Proof.
      revert lo. induction l1 as [|z l1 IH]; intros lo; cbn [seqb app].
      - intros (_ & _ & (A & _)). exact A.
      - intros (_ & _ & C). exact (IH _ C).
    Qed.

    (* what a list iterator can hand out after the first element: the cars of
       the chain and, when it carries a span of its own, the final tail *)
    Fixpoint elems_tail (i : span_info) : list span_info :=
      match i with
      | SCons _ a d => a :: elems_tail d
      | SPrim sp => if fst (sp_start sp) =? 0 then [] else [i]
      | SVec _ _ => [i]
      end.

    Fixpoint tight (i : span_info) : Prop :=
      match i with
      | SPrim _ => True
      | SCons sp a d => (fst (sp_start sp) = 0 \/ seqb (sp_start sp) (sp_end sp) (a :: elems_tail d)) /\ tight a /\ tight d
      | SVec sp l => seqb (sp_start sp) (sp_end sp) l /\
                     (fix all (l : list span_info) : Prop := match l with [] => True | x :: l' => tight x /\ all l' end) l
      end.
    Definition all_tight : list span_info -> Prop :=
      fix all (l : list span_info) : Prop := match l with [] => True | x :: l' => tight x /\ all l' end.

    Lemma elems_tail_chain ms tm : elems_tail (chain_meta ms tm) = ms ++ elems_tail tm.
    Proof. induction ms as [|m ms IH]; cbn [chain_meta elems_tail app]; [reflexivity|]. now rewrite IH. Qed.
    Lemma tight_chain ms tm : all_tight ms -> tight tm -> tight (chain_meta ms tm).
    Proof.
      induction ms as [|m ms IH]; cbn [chain_meta all_tight tight]; [auto|]. intros [Hm Hms] Ht.
      split; [left; reflexivity|]. split; [exact Hm|apply IH; assumption].
    Qed.
    Lemma all_tight_map ds : Forall (fun d => tight (dinfo d)) ds -> all_tight (map dinfo ds).
    Proof. induction 1 as [|d ds Hd _ IH]; cbn [map all_tight]; auto. Qed.

    Lemma prefix_line l c : prefix_pos W l c -> 1 <= l.
    Proof.
      intros (p & q & _ & E). assert (H : pos_le (1, 0) (pos_after p)) by exact (fold_advance_le p (1, 0)).
      rewrite <- E in H. unfold pos_le in H. cbn [fst snd] in H. clear -H. lia.
    Qed.
    Lemma real_line lo hi sp : real lo hi sp -> (fst (sp_start sp) =? 0) = false.
    Proof. intros (A & _). apply prefix_line in A. clear -A. lia. Qed.

    Lemma tail_elems lo hi l t : real lo hi (info_span t) -> tight t -> seqb lo hi (l ++ [t]) -> seqb lo hi (l ++ elems_tail t).
    Proof.
      intros Hr Ht Hs. destruct t as [sp|sp a d|sp ms]; cbn [elems_tail info_span] in *.
      - rewrite (real_line lo hi sp Hr). exact Hs.
      - destruct Ht as ([H0|Hseq] & _ & _); [pose proof (real_line lo hi sp Hr) as H1; clear -H0 H1; lia|].
        eapply seqb_expand; [exact Hs|exact Hseq].
      - exact Hs.
    Qed.

    Definition opt_list {A} (o : option A) : list A := match o with Some t => [t] | None => [] end.
    Lemma Forall_opt {A} (P : A -> Prop) l o :
      Forall P (l ++ opt_list o) -> Forall P l /\ match o with Some t => P t | None => True end.
    Proof. intros [H1 H2]%Forall_app. split; [exact H1|]. destruct o; [exact (Forall_inv H2)|exact I]. Qed.

    Lemma list_datum_tight ds tail a b :
      Forall (fun d => tight (dinfo d)) ds -> (match tail with Some t => tight (dinfo t) /\ dok a b t | None => True end) ->
      seqb a b (map dinfo (ds ++ opt_list tail)) -> tight (dinfo (list_datum (ds, tail) a b)).
    Proof.
      intros Hds Ht Hs. destruct ds as [|d1 ds]; [exact I|].
      inversion Hds as [|? ? H1 Hrest]; subst. unfold list_datum, list_meta. cbn [dinfo tight mk_span sp_start sp_end].
      split; [right|split; [exact H1|]].
      - rewrite elems_tail_chain, app_comm_cons. rewrite map_app in Hs.
        destruct tail as [t|]; cbn [opt_list map] in Hs.
        + destruct Ht as [Htt [_ Hr]]. apply (tail_elems a b); assumption.
        + exact Hs.
      - apply tight_chain; [apply all_tight_map; exact Hrest|]. destruct tail as [t|]; [apply Ht|exact I].
    Qed.

    Lemma vector_tight els a b : Forall (fun d => tight (dinfo d)) els -> seqb a b (map dinfo els) ->
      tight (SVec (mk_span a b) (map dinfo els)).
    Proof. intros H Hs. cbn [tight mk_span sp_start sp_end]. split; [exact Hs|apply all_tight_map; exact H]. Qed.

    Lemma quotation_tight hi name quoted s0 s1 : dok s1 hi quoted -> tight (dinfo quoted) -> pos_le s0 s1 ->
      tight (dinfo (quotation_datum name quoted (mk_span s0 s1))).
    Proof.
      intros [_ (Q1 & Q2 & Q3 & Q4 & Q5)] Ht L. unfold quotation_datum. cbv zeta.
      set (qi := dinfo quoted) in *. set (qend := sp_end (info_span qi)) in *.
      cbn [dinfo tight mk_span sp_start sp_end elems_tail info_span root_start root_end].
      assert (Htail : forall lo, pos_le lo qend -> seqb lo qend (if fst qend =? 0 then [] else [SPrim (mk_span qend qend)])).
      { intros lo Hlo. destruct (fst qend =? 0); cbn [seqb root_start root_end info_span mk_span sp_start sp_end]; auto.
        repeat split; auto; apply pos_le_refl. }
      split; [right|split; [exact I|split; [right|split; [exact Ht|exact I]]]].
      - cbn [seqb root_start root_end info_span mk_span sp_start sp_end]. repeat split; try apply pos_le_refl; auto.
        apply Htail. apply pos_le_refl.
      - cbn [seqb root_start root_end]. repeat split; try apply pos_le_refl; auto. apply Htail. apply pos_le_refl.
    Qed.

    (* Every span a datum hands out covers at least one byte: the token it
       starts with is consumed. (The leaf that ends a cons chain - the end
       marker, or the atom after a dot - is the one place not covered.) *)
    Fixpoint nef (tail : bool) (i : span_info) : Prop :=
      match i with
      | SPrim sp => if tail then True else pos_lt (sp_start sp) (sp_end sp)
      | SCons sp a d => (fst (sp_start sp) = 0 \/ pos_lt (sp_start sp) (sp_end sp)) /\ nef false a /\ nef true d
      | SVec sp l => pos_lt (sp_start sp) (sp_end sp) /\
                     (fix all (l : list span_info) : Prop := match l with [] => True | x :: l' => nef false x /\ all l' end) l
      end.
    Definition all_ne : list span_info -> Prop :=
      fix all (l : list span_info) : Prop := match l with [] => True | x :: l' => nef false x /\ all l' end.
    Lemma nef_tail_of i : nef false i -> nef true i.
    Proof. destruct i; cbn [nef]; auto. Qed.
    Lemma all_ne_map ds : Forall (fun d => nef false (dinfo d)) ds -> all_ne (map dinfo ds).
    Proof. induction 1 as [|d ds Hd _ IH]; cbn [map all_ne]; auto. Qed.
    Lemma ne_chain ms tm : all_ne ms -> nef true tm -> nef true (chain_meta ms tm).
    Proof.
      induction ms as [|m ms IH]; cbn [chain_meta all_ne nef]; [auto|]. intros [Hm Hms] Ht.
      split; [left; reflexivity|]. split; [exact Hm|apply IH; assumption].
    Qed.

    Definition qkn (start : N * N) (tok : token) (mid : N * N) (o : option datum) (hi : N * N) : Prop :=
      match o with
      | Some d => forall (Hlt : pos_lt start mid), nef false (dinfo d)
      | None => True
      end.

    Lemma root_nonempty lo hi i : real lo hi (info_span i) -> nef false i -> pos_lt (root_start i) (root_end i).
    Proof.
      intros Hr Hn. destruct i as [sp|sp a d|sp l]; cbn [nef info_span] in *; [exact Hn| |apply Hn].
      destruct Hn as ([H0|H0] & _); [|exact H0]. pose proof (real_line lo hi sp Hr) as H1. clear -H0 H1. lia.
    Qed.

    Lemma list_datum_ne ds tail a b : pos_lt a b -> Forall (fun d => nef false (dinfo d)) ds ->
      (match tail with Some t => nef false (dinfo t) | None => True end) -> nef false (dinfo (list_datum (ds, tail) a b)).
    Proof.
      intros Hab Hds Ht. destruct ds as [|d1 ds]; [exact Hab|].
      inversion Hds as [|? ? H1 Hrest]; subst. unfold list_datum, list_meta. cbn [dinfo nef mk_span sp_start sp_end].
      split; [right; exact Hab|]. split; [exact H1|]. apply ne_chain; [apply all_ne_map; exact Hrest|].
      destruct tail as [t|]; [apply nef_tail_of; exact Ht|exact I].
    Qed.

    Lemma quotation_ne hi name quoted s0 s1 : dok s1 hi quoted -> nef false (dinfo quoted) -> pos_lt s0 s1 ->
      nef false (dinfo (quotation_datum name quoted (mk_span s0 s1))).
    Proof.
      intros [_ Hr] Hn Hlt. pose proof (root_nonempty _ _ _ Hr Hn) as Hroot. destruct Hr as (_ & _ & R3 & R4 & _).
      unfold quotation_datum. cbv zeta. cbn [dinfo nef mk_span sp_start sp_end].
      split; [right; eauto with posdb|]. split; [exact Hlt|]. split; [right; exact Hroot|]. split; [exact Hn|exact I].
    Qed.

    Definition good (lo hi : N * N) (d : datum) : Prop := dok lo hi d /\ tight (dinfo d) /\ nef false (dinfo d).
    Definition goods (lo hi : N * N) (l : list datum) : Prop := seqb lo hi (map dinfo l) /\ Forall (good lo hi) l.

    Lemma good_le lo hi d : good lo hi d -> pos_le lo hi.
    Proof. intros [[_ (_ & _ & A & B & C)] _]. eauto with posdb. Qed.
    Lemma good_widen lo hi lo' hi' d : pos_le lo' lo -> pos_le hi hi' -> good lo hi d -> good lo' hi' d.
    Proof. intros H1 H2 [Hd Ht]. split; [eapply dok_widen; eauto|exact Ht]. Qed.
    Lemma goods_widen lo hi lo' hi' l : pos_le lo' lo -> pos_le hi hi' -> goods lo hi l -> goods lo' hi' l.
    Proof.
      intros H1 H2 [Hs Hf]. split; [eapply seqb_widen; eauto|].
      eapply Forall_impl; [|exact Hf]. intros d. apply good_widen; assumption.
    Qed.
    Lemma goods_nil lo : goods lo lo [].
    Proof. split; [apply pos_le_refl|constructor]. Qed.
    Lemma goods_snoc lo0 lo mid acc d : goods lo0 lo acc -> good lo mid d -> goods lo0 mid (acc ++ [d]).
    Proof.
      intros [Hs Hf] Hd. pose proof (seqb_le _ _ _ Hs) as L0. pose proof (good_le _ _ _ Hd) as L1. split.
      - destruct Hd as [[_ (_ & _ & R3 & R4 & R5)] _]. rewrite map_app. eapply seqb_snoc; eassumption.
      - apply Forall_app. split; [|constructor; [exact (good_widen _ _ _ _ _ L0 (pos_le_refl _) Hd)|constructor]].
        eapply Forall_impl; [|exact Hf]. intros x. apply good_widen; [apply pos_le_refl|exact L1].
    Qed.

    Lemma good_prim v a b : prefix_pos W (fst a) (snd a) -> prefix_pos W (fst b) (snd b) -> pos_lt a b ->
      good a b (prim_datum v a b).
    Proof.
      intros Pa Pb Hlt. split; [|split; [exact I|exact Hlt]].
      apply prim_dok, real_mk; auto using pos_le_refl, pos_lt_le.
    Qed.
    Lemma good_list ds tail a b : goods a b (ds ++ opt_list tail) ->
      prefix_pos W (fst a) (snd a) -> prefix_pos W (fst b) (snd b) -> pos_lt a b -> good a b (list_datum (ds, tail) a b).
    Proof.
      intros [Hs [Hds Ht]%Forall_opt] Pa Pb Hlt. split; [|split].
      - apply list_datum_dok; [exact (Forall_impl _ (fun d H => proj1 H) Hds)|destruct tail; [apply Ht|exact I]|].
        apply real_mk; auto using pos_le_refl, pos_lt_le.
      - apply list_datum_tight; [exact (Forall_impl _ (fun d H => proj1 (proj2 H)) Hds)| |exact Hs].
        destruct tail; [split; apply Ht|exact I].
      - apply list_datum_ne; [exact Hlt|exact (Forall_impl _ (fun d H => proj2 (proj2 H)) Hds)|destruct tail; [apply Ht|exact I]].
    Qed.
    Lemma good_vector els a b : goods a b els ->
      prefix_pos W (fst a) (snd a) -> prefix_pos W (fst b) (snd b) -> pos_lt a b ->
      good a b {| dvalue := Vector (map dvalue els); dinfo := SVec (mk_span a b) (map dinfo els) |}.
    Proof.
      intros [Hs Hf] Pa Pb Hlt. split; [|split]; cbn [dinfo].
      - apply vector_dok; [exact (Forall_impl _ (fun d H => proj1 H) Hf)|]. apply real_mk; auto using pos_le_refl, pos_lt_le.
      - apply vector_tight; [exact (Forall_impl _ (fun d H => proj1 (proj2 H)) Hf)|exact Hs].
      - split; [exact Hlt|]. apply all_ne_map. exact (Forall_impl _ (fun d H => proj2 (proj2 H)) Hf).
    Qed.
    Lemma good_quotation hi name quoted s0 s1 : good s1 hi quoted ->
      prefix_pos W (fst s0) (snd s0) -> prefix_pos W (fst s1) (snd s1) -> pos_lt s0 s1 ->
      good s0 hi (quotation_datum name quoted (mk_span s0 s1)).
    Proof.
      intros (Hd & Ht & Hn) P0 P1 Hlt. pose proof (pos_lt_le _ _ Hlt) as L. split; [|split].
      - apply quotation_dok; assumption.
      - apply (quotation_tight hi); assumption.
      - apply (quotation_ne hi); assumption.
    Qed.

    Definition qgood (lo : N * N) (o : option datum) (hi : N * N) : Prop :=
      match o with Some d => good lo hi d | None => True end.
    Definition qelems (acc : list datum) (lo : N * N) (l : list datum) (hi : N * N) : Prop :=
      forall lo0, goods lo0 lo acc -> goods lo0 hi l.
    Definition qlist (acc : list datum) (lo : N * N) (res : list datum * option datum) (hi : N * N) : Prop :=
      qelems acc lo (fst res ++ opt_list (snd res)) hi.

    Lemma mono_qgood : mono_lo qgood.
    Proof. intros lo lo' o hi H. destruct o; cbn [qgood]; [apply good_widen; [exact H|apply pos_le_refl]|auto]. Qed.
    Lemma mono_qelems {A} (g : A -> list datum) acc : mono_lo (fun lo a hi => qelems acc lo (g a) hi).
    Proof. intros lo lo' a hi H Hq lo0 Hacc. apply Hq. eapply goods_widen; [apply pos_le_refl|exact H|exact Hacc]. Qed.

    Lemma qelems_snoc acc d lo lo1 m1 m2 l hi : pos_le lo lo1 -> pos_le m1 m2 -> good lo1 m1 d ->
      qelems (acc ++ [d]) m2 l hi -> qelems acc lo l hi.
    Proof. intros L1 L2 Hd Hq lo0 Hacc. apply Hq. eapply goods_snoc; [exact Hacc|]. exact (good_widen _ _ _ _ _ L1 L2 Hd). Qed.

    Lemma Jd_then {A B} (m : PM A) (f : A -> PM B) p (Q : N * N -> B -> N * N -> Prop) :
      Jd m p -> (forall a, Jd (f a) (inside p a Q)) -> Jd (pbind m f) Q.
    Proof.
      intros Hm Hf. eapply Jd_weaken; [|apply (Jd_bind m f _ _ Hm Hf)].
      intros lo b hi _ (a & mid & Hp & Hq & L1 & _). exact (Hq lo lo mid (pos_le_refl _) L1 (pos_le_refl _) Hp).
    Qed.

    (* a post relative to an earlier position [start], strictly before the present one *)
    Definition after {A} (start : N * N) (q : N * N -> A -> N * N -> Prop) : N * N -> A -> N * N -> Prop :=
      fun mid a hi => prefix_pos W (fst start) (snd start) -> pos_lt start mid -> q start a hi.
    Lemma mono_after {A} start (q : N * N -> A -> N * N -> Prop) : mono_lo (after start q).
    Proof. intros lo lo' a hi H Hq Hps Hlt. apply Hq; [exact Hps|]. eapply pos_lt_le_trans; eassumption. Qed.

    (* a judgement with a precondition on the reader, for the steps right after parse_whitespace *)
    Definition Jdp {A} (pre : reader -> Prop) (m : PM A) (post : N * N -> A -> N * N -> Prop) : Prop :=
      forall s, inv W (rd s) -> pre (rd s) ->
        match m s with
        | (POk a, s') => inv W (rd s') /\ pos_le (rpos (rd s)) (rpos (rd s')) /\ post (rpos (rd s)) a (rpos (rd s'))
        | (PErr _, _) => True
        end.
    Lemma Jdp_of_Jd {A} pre (m : PM A) q : Jd m q -> Jdp pre m q.
    Proof. intros H s Hi _. apply H. exact Hi. Qed.
    Lemma Jd_ws_cases {B} f (kn : PM B) (ks : N -> PM B) (Q : N * N -> B -> N * N -> Prop) :
      mono_lo Q -> Jd kn Q -> (forall c, Jdp (at_byte c) (ks c) Q) ->
      Jd (pbind (liftR (parse_whitespace f)) (fun o => match o with None => kn | Some c => ks c end)) Q.
    Proof.
      intros Hmono Hn Hs s Hi. rewrite pbind_unfold.
      pose proof (any_ws f s Hi) as H1. pose proof (ws_at_byte f (rd s)) as Hat. unfold liftR in *.
      destruct (parse_whitespace f (rd s)) as [[o|e] r1]; [|exact I]. destruct H1 as (Hi1 & L1 & _). cbn [rd] in *.
      set (s1 := {| rd := r1; depth := depth s |}) in *.
      assert (H : match (match o with None => kn | Some c => ks c end) s1 with
                  | (POk a, s') => inv W (rd s') /\ pos_le (rpos r1) (rpos (rd s')) /\ Q (rpos r1) a (rpos (rd s'))
                  | (PErr _, _) => True
                  end) by (destruct o as [c|]; [exact (Hs c s1 Hi1 Hat)|exact (Hn s1 Hi1)]).
      destruct (_ s1) as [[b|e] s2]; [|exact I]. destruct H as (Hi2 & L2 & Hq).
      split; [exact Hi2|]. split; [eauto with posdb|]. eapply Hmono; [exact L1|exact Hq].
    Qed.
    Lemma Jdp_pos_strict {A B} c (m : M A) (K : N * N -> A -> PM B) (Q : N * N -> B -> N * N -> Prop) :
      Jd_any (liftR m) -> strict rlt c m -> (forall start a, Jd (K start a) (after start Q)) ->
      Jdp (at_byte c) (pbind (liftR position) (fun start => pbind (liftR m) (K start))) Q.
    Proof.
      intros HT Hst HK s Hi Hat. rewrite pbind_unfold. unfold liftR at 1, position at 1. cbn [fst snd rd].
      set (start := r_position (rd s)).
      assert (Hps : prefix_pos W (fst start) (snd start)) by (apply position_prefix; exact Hi).
      replace {| rd := rd s; depth := depth s |} with s by (destruct s; reflexivity).
      rewrite pbind_unfold. specialize (HT s Hi). specialize (Hst (rd s) Hat). unfold liftR in *.
      destruct (m (rd s)) as [[a|e] r2]; [|exact I]. destruct HT as (Hi2 & L2 & _). cbn [rd] in *.
      set (s2 := {| rd := r2; depth := depth s |}) in *.
      specialize (HK start a s2 Hi2). destruct (K start a s2) as [[b|e] s3]; [|exact I]. destruct HK as (Hi3 & L3 & Hq).
      split; [exact Hi3|]. split; [eauto with posdb|]. exact (Hq Hps Hst).
    Qed.
    Lemma rlt_eat_peek c : strict rlt c (eat_char ;;; peek).
    Proof.
      intros r Hat. pose proof (rlt_eat c r Hat) as Hst. unfold bind, eat_char in *.
      pose proof (mono_peek (r_discard r)) as Hpk. unfold R, Rmono in Hpk.
      destruct (peek (r_discard r)) as [[nx|e] r2]; cbn [fst snd] in *; [|exact I]. eapply pos_lt_le_trans; eassumption.
    Qed.

    Lemma Jd_prim v start : Jd (pbind (liftR position) (fun e => pret (Some (prim_datum v start e)))) (after start qgood).
    Proof. apply Jd_after_pos. intros e. apply Jd_ret. intros lo -> He Hps Hlt. apply good_prim; assumption. Qed.

    Theorem datums_good fuel :
      Jd (next_datum fuel) qgood /\
      (forall t acc, Jd (parse_list_meta fuel t acc) (qlist acc)) /\
      (forall t acc, Jd (parse_vector_meta fuel t acc) (qelems acc)).
    Proof.
      induction fuel as [|f (IHv & IHl & IHvec)].
      - split; [|split]; intros; cbn [Parser.next_datum Parser.parse_list_meta Parser.parse_vector_meta]; apply Jd_fail.
      - split; [|split]; intros; cbn [Parser.next_datum Parser.parse_list_meta Parser.parse_vector_meta]; fold next_datum parse_list_meta parse_vector_meta.
        + apply Jd_ws_cases; [apply mono_qgood|apply Jd_ret; intros; exact I|]. intros c.
          apply Jdp_pos_strict; [apply any_token|exact (token_strict ro alpha fast std_parse f c)|]. intros start tok. cbv zeta.
          destruct tok; try apply Jd_prim.
          * (* list *)
            apply (Jd_nest_seq _ _ _ (qlist [])); [apply IHl|apply any_end_seq|]. intros [ds tail].
            apply Jd_after_pos. intros e. apply Jd_ret. intros m2 -> He lo lo1 m1 L1 L2 L3 Hp Hps Hlt.
            apply good_list; eauto 6 with posdb.
            eapply goods_widen; [| |apply Hp, goods_nil]; eauto using pos_lt_le with posdb.
          * (* quotation *)
            apply Jd_after_pos. intros token_end.
            apply (Jd_nest_quote _ _ qgood); [apply IHv|]. intros [d|]; [|apply Jd_err].
            apply Jd_ret. intros m2 lo lo1 m1 L1 L2 L3 Hd -> Hpt Hps Hlt.
            apply good_quotation; auto. exact (good_widen _ _ _ _ _ L1 L3 Hd).
          * (* vector *)
            apply (Jd_nest_seq _ _ _ (qelems [])); [apply IHvec|apply any_end_seq|]. intros els.
            apply Jd_after_pos. intros e. apply Jd_ret. intros m2 -> He lo lo1 m1 L1 L2 L3 Hp Hps Hlt.
            apply good_vector; eauto 6 with posdb.
            eapply goods_widen; [| |apply Hp, goods_nil]; eauto using pos_lt_le with posdb.
          * (* byte vector *)
            apply Jd_after; [apply any_byte_list|apply mono_after|]. intros bs. apply Jd_prim.
        + apply Jd_ws_cases; [apply (mono_qelems (fun res => fst res ++ opt_list (snd res)))|apply Jd_err|]. intros c.
          destruct (is_closer c).
          { apply Jdp_of_Jd. destruct (negb (c =? t)); [apply Jd_err|]. apply Jd_ret. intros lo lo0 Hacc.
            cbn [fst snd opt_list]. rewrite app_nil_r. exact Hacc. }
          destruct (c =? 46).
          { apply Jdp_pos_strict; [apply any_eat_peek|apply rlt_eat_peek|]. intros start nx. destruct (lone_dot nx).
            - destruct acc as [|x acc'].
              + apply Jd_after; [apply any_peek|apply mono_after|]. intros o3. destruct o3; apply Jd_err.
              + (* the dotted tail is one more element *)
                eapply Jd_then; [apply IHv|]. intros [cdr|]; [|apply Jd_err].
                apply Jd_after; [apply any_ws|apply mono_inside|].
                intros o2. destruct o2 as [c2|]; [|apply Jd_err]. destruct (c2 =? t); [|apply Jd_err].
                apply Jd_ret. intros m2 lo lo1 m1 L1 L2 L3 Hd Hps Hlt.
                apply (qelems_snoc (x :: acc') cdr start lo1 m1 m2); [eauto using pos_lt_le with posdb|exact L3|exact Hd|].
                intros lo0 H. exact H.
            - (* ".name": the symbol's span starts at the dot, which has been eaten *)
              apply Jd_after; [apply any_symbol_suffix|apply mono_after|]. intros name.
              apply Jd_after_pos. intros e. eapply Jd_weaken; [|apply IHl].
              intros lo res hi L Hq -> He Hps Hlt.
              refine (qelems_snoc acc _ start start lo lo _ _ (pos_le_refl _) (pos_le_refl _) _ Hq).
              apply good_prim; assumption. }
          apply Jdp_of_Jd. eapply Jd_then; [apply IHv|]. intros [d|]; [|apply Jd_err].
          eapply Jd_weaken; [|apply IHl]. intros m2 res hi _ Hq lo lo1 m1 L1 L2 L3 Hd.
          exact (qelems_snoc _ _ _ _ _ _ _ _ L1 L3 Hd Hq).
        + apply Jd_after; [apply any_ws|apply (mono_qelems (fun l => l))|]. intros o. destruct o as [c|]; [|apply Jd_err].
          destruct (is_closer c).
          { destruct (negb (c =? t)); [apply Jd_err|]. apply Jd_ret. intros lo lo0 Hacc. exact Hacc. }
          eapply Jd_then; [apply IHv|]. intros [d|]; [|apply Jd_err].
          eapply Jd_weaken; [|apply IHvec]. intros m2 res hi _ Hq lo lo1 m1 L1 L2 L3 Hd.
          exact (qelems_snoc _ _ _ _ _ _ _ _ L1 L3 Hd Hq).
    Qed.

    Definition all_datums (P : N * N -> N * N -> datum -> Prop) (fuel : nat) : Prop :=
      Jd (next_datum fuel) (fun lo o hi => match o with Some d => P lo hi d | None => True end) /\
      (forall t, Jd (parse_list_meta fuel t []) (fun lo res hi => Forall (P lo hi) (fst res ++ opt_list (snd res)))) /\
      (forall t, Jd (parse_vector_meta fuel t []) (fun lo res hi => Forall (P lo hi) res)).
    Lemma datums_all (P : N * N -> N * N -> datum -> Prop) fuel : (forall lo hi d, good lo hi d -> P lo hi d) -> all_datums P fuel.
    Proof.
      intros HP. destruct (datums_good fuel) as (Hv & Hl & Hvec). split; [|split]; intros.
      - eapply Jd_weaken; [|exact Hv]. intros lo [d|] hi _ H; [apply HP; exact H|exact I].
      - eapply Jd_weaken; [|apply Hl]. intros lo res hi _ H. eapply Forall_impl; [apply HP|]. apply (H lo), goods_nil.
      - eapply Jd_weaken; [|apply Hvec]. intros lo res hi _ H. eapply Forall_impl; [apply HP|]. apply (H lo), goods_nil.
    Qed.
    Theorem datums_spans fuel : all_datums dok fuel.
    Proof. apply datums_all. intros lo hi d H. apply H. Qed.
    Theorem datums_tight fuel : all_datums (fun _ _ d => tight (dinfo d)) fuel.
    Proof. apply datums_all. intros lo hi d H. apply H. Qed.
  End Main.
End Spans.

Definition span_in_bounds (W : bytes) (sp : span) : Prop :=
  sp = span_empty \/
  (in_bounds W (fst (sp_start sp)) (snd (sp_start sp)) /\ in_bounds W (fst (sp_end sp)) (snd (sp_end sp)) /\
   pos_le (sp_start sp) (sp_end sp)).

Lemma datum_from_trait_good ro alpha fast std_parse k inp d :
  datum_from_trait ro alpha fast std_parse k inp = POk d -> exists hi, good (bytes_in inp) (1, 0) hi d.
Proof.
  intros [s1 E1]%datum_from_trait_next.
  pose proof (proj1 (datums_good (bytes_in inp) ro alpha fast std_parse (fuel_for inp)) (init_state k inp) (inv_init _ k inp eq_refl)) as H.
  rewrite E1 in H. exists (rpos (rd s1)). apply H.
Qed.

Theorem datum_from_trait_spans ro alpha fast std_parse k inp d :
  datum_from_trait ro alpha fast std_parse k inp = POk d ->
  all_spans (span_in_bounds (bytes_in inp)) (dinfo d) /\
  real (bytes_in inp) (1, 0) (sp_end (info_span (dinfo d))) (info_span (dinfo d)).
Proof.
  intros [hi [[Ha Hr] _]]%datum_from_trait_good. split.
  - eapply all_spans_impl; [|exact Ha]. intros sp [->|(A & B & C & D & F)]; [left; reflexivity|right].
    split; [apply prefix_pos_in_bounds; exact A|]. split; [apply prefix_pos_in_bounds; exact B|exact D].
  - destruct Hr as (A & B & C & D & F). repeat split; auto. apply pos_le_refl.
Qed.

(* nesting and sibling order at the entry point *)
Theorem datum_from_trait_tight ro alpha fast std_parse k inp d :
  datum_from_trait ro alpha fast std_parse k inp = POk d -> tight (dinfo d).
Proof. intros [hi H]%datum_from_trait_good. apply H. Qed.

(* every span handed out is non-empty, at the entry point *)
Theorem datum_from_trait_nonempty ro alpha fast std_parse k inp d :
  datum_from_trait ro alpha fast std_parse k inp = POk d -> nef false (dinfo d).
Proof. intros [hi H]%datum_from_trait_good. apply H. Qed.

Theorem next_datum_progress W ro alpha fast std_parse fuel s : inv W (rd s) ->
  match next_datum ro alpha fast std_parse fuel s with
  | (POk (Some d), s') => inv W (rd s') /\ pos_lt (rpos (rd s)) (rpos (rd s'))
  | (POk None, s') => inv W (rd s')
  | (PErr _, _) => True
  end.
Proof.
  intros Hi. pose proof (proj1 (datums_good W ro alpha fast std_parse fuel) s Hi) as H.
  destruct (next_datum ro alpha fast std_parse fuel s) as [[[d|]|e] s1]; [| |exact I]; destruct H as (Hi1 & _ & H); [|exact Hi1].
  split; [exact Hi1|]. destruct H as ([_ Hr] & _ & Hn). pose proof (root_nonempty W _ _ _ Hr Hn) as Hroot.
  destruct Hr as (_ & _ & R3 & _ & R5). unfold root_start, root_end in Hroot. eauto with posdb.
Qed.
