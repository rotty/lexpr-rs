(* Fuel is irrelevant once it suffices. The model's loops run on fuel and one
   place swallows the fuel error: number_of_symbol re-parses a digit-initial
   symbol on a fresh reader and turns every failure, the fuel error included,
   into "not a number". So "no fuel error is ever reported" (C03_total) leaves
   a question open: could a run with little fuel silently differ from a run
   with more? No: for every reader with at most n events left and every two
   fuel values above the bound of FuelProofs, every function of the parser
   returns exactly the same result and state. The re-parse is covered because
   a scanned symbol is no longer than the input it was scanned from. *)
From Coq Require Import SpecFloat Lia ZifyBool ZifyNat ZifyN.
Require Import Base Value Float PrintOptions ParseOptions Utf8 Reader Scan Num NumberOps Parser.
Require Import RelFramework FuelProofs CrossProofs.

(* um mi ms (CrossProofs): mi reports the fuel error or behaves exactly like ms *)
Lemma um_of_eq {A} (mi ms : M A) : (forall r, mi r = ms r) -> um mi ms.
Proof. intros H r. right. apply H. Qed.
Lemma um_by_rk {A} (mi ms : M A) (fi fs : src_kind -> M A) :
  (forall r, mi r = fi (rk r) r) -> (forall r, ms r = fs (rk r) r) -> (forall k, um (fi k) (fs k)) -> um mi ms.
Proof. intros Ei Es H r. rewrite Ei, Es. apply H. Qed.

Lemma um_scan_symbol_io fi : forall fs scratch, (fi <= fs)%nat -> um (scan_symbol_io fi scratch) (scan_symbol_io fs scratch).
Proof.
  induction fi as [|fi IH]; intros fs scratch Hf; [apply um_fuel|]. destruct fs as [|fs]; [lia|]. cbn [scan_symbol_io].
  assert (H' : forall y, um (scan_symbol_io fi y) (scan_symbol_io fs y)) by (intros; apply IH; lia). um_auto.
Qed.
Lemma um_parse_symbol_rd fi fs scratch : (fi <= fs)%nat -> um (parse_symbol_rd fi scratch) (parse_symbol_rd fs scratch).
Proof.
  intros Hf.
  apply (um_by_rk _ _ (fun k => match k with SrcIo => b <- scan_symbol_io fi scratch ;; Scan.as_str b | _ => b <- scan_symbol_slice scratch ;; finish_str b end)
                      (fun k => match k with SrcIo => b <- scan_symbol_io fs scratch ;; Scan.as_str b | _ => b <- scan_symbol_slice scratch ;; finish_str b end));
    [intros r; unfold parse_symbol_rd; destruct (rk r); reflexivity|intros r; unfold parse_symbol_rd; destruct (rk r); reflexivity|].
  pose proof (um_scan_symbol_io fi fs scratch Hf). intros k; destruct k; um_auto.
Qed.
#[export] Hint Resolve um_parse_symbol_rd um_hex_escape_loop um_parse_r6rs_escape um_elisp_hex_loop um_elisp_octal_loop um_parse_elisp_escape : umdb.

Lemma um_r6rs_str_io fi : forall fs scratch, (fi <= fs)%nat -> um (r6rs_str_io fi scratch) (r6rs_str_io fs scratch).
Proof.
  induction fi as [|fi IH]; intros fs scratch Hf; [apply um_fuel|]. destruct fs as [|fs]; [lia|]. cbn [r6rs_str_io].
  assert (H' : forall y, um (r6rs_str_io fi y) (r6rs_str_io fs y)) by (intros; apply IH; lia).
  assert (He : um (parse_r6rs_escape fi) (parse_r6rs_escape fs)) by (apply um_parse_r6rs_escape; lia). um_auto.
Qed.
Lemma um_r6rs_str_slice fi : forall fs scratch, (fi <= fs)%nat -> um (r6rs_str_slice fi scratch) (r6rs_str_slice fs scratch).
Proof.
  induction fi as [|fi IH]; intros fs scratch Hf; [apply um_fuel|]. destruct fs as [|fs]; [lia|].
  intros r. rewrite !r6rs_str_slice_eq. revert r.
  assert (H' : forall y, um (r6rs_str_slice fi y) (r6rs_str_slice fs y)) by (intros; apply IH; lia).
  assert (He : um (parse_r6rs_escape fi) (parse_r6rs_escape fs)) by (apply um_parse_r6rs_escape; lia). um_auto.
Qed.
Lemma um_parse_r6rs_str_rd fi fs : (fi <= fs)%nat -> um (parse_r6rs_str_rd fi) (parse_r6rs_str_rd fs).
Proof.
  intros Hf.
  apply (um_by_rk _ _ (fun k => match k with SrcIo => b <- r6rs_str_io fi [] ;; Scan.as_str b | _ => b <- r6rs_str_slice fi [] ;; finish_str b end)
                      (fun k => match k with SrcIo => b <- r6rs_str_io fs [] ;; Scan.as_str b | _ => b <- r6rs_str_slice fs [] ;; finish_str b end));
    [intros r; unfold parse_r6rs_str_rd; destruct (rk r); reflexivity|intros r; unfold parse_r6rs_str_rd; destruct (rk r); reflexivity|].
  pose proof (um_r6rs_str_io fi fs [] Hf). pose proof (um_r6rs_str_slice fi fs [] Hf). intros k; destruct k; um_auto.
Qed.
Lemma um_elisp_str_io fi : forall fs fl scratch, (fi <= fs)%nat -> um (elisp_str_io fi fl scratch) (elisp_str_io fs fl scratch).
Proof.
  induction fi as [|fi IH]; intros fs fl scratch Hf; [apply um_fuel|]. destruct fs as [|fs]; [lia|]. cbn [elisp_str_io].
  assert (H' : forall x y, um (elisp_str_io fi x y) (elisp_str_io fs x y)) by (intros; apply IH; lia).
  assert (He : um (parse_elisp_escape fi) (parse_elisp_escape fs)) by (apply um_parse_elisp_escape; lia). um_auto.
Qed.
Lemma um_elisp_str_slice fi : forall fs fl scratch, (fi <= fs)%nat -> um (elisp_str_slice fi fl scratch) (elisp_str_slice fs fl scratch).
Proof.
  induction fi as [|fi IH]; intros fs fl scratch Hf; [apply um_fuel|]. destruct fs as [|fs]; [lia|].
  intros r. rewrite !elisp_str_slice_eq. revert r. cbv zeta.
  assert (H' : forall x y, um (elisp_str_slice fi x y) (elisp_str_slice fs x y)) by (intros; apply IH; lia).
  assert (He : um (parse_elisp_escape fi) (parse_elisp_escape fs)) by (apply um_parse_elisp_escape; lia). um_auto.
Qed.
Lemma um_parse_elisp_str_rd fi fs : (fi <= fs)%nat -> um (parse_elisp_str_rd fi) (parse_elisp_str_rd fs).
Proof.
  intros Hf. pose (fl0 := {| seen_ub := false; seen_mb := false; seen_na := false |}).
  apply (um_by_rk _ _ (fun k => match k with SrcIo => elisp_str_io fi fl0 [] | _ => elisp_str_slice fi fl0 [] end)
                      (fun k => match k with SrcIo => elisp_str_io fs fl0 [] | _ => elisp_str_slice fs fl0 [] end));
    [intros r; unfold parse_elisp_str_rd; cbv zeta; destruct (rk r); reflexivity|intros r; unfold parse_elisp_str_rd; cbv zeta; destruct (rk r); reflexivity|].
  intros k; destruct k; first [apply um_elisp_str_io; exact Hf|apply um_elisp_str_slice; exact Hf].
Qed.
#[export] Hint Resolve um_parse_r6rs_str_rd um_parse_elisp_str_rd : umdb.

Lemma um_r6rs_char_hex_loop fi : forall fs x first, (fi <= fs)%nat -> um (r6rs_char_hex_loop fi x first) (r6rs_char_hex_loop fs x first).
Proof.
  induction fi as [|fi IH]; intros fs x first Hf; [apply um_fuel|]. destruct fs as [|fs]; [lia|]. cbn [r6rs_char_hex_loop].
  assert (H' : forall y z, um (r6rs_char_hex_loop fi y z) (r6rs_char_hex_loop fs y z)) by (intros; apply IH; lia). um_auto.
Qed.
Lemma um_char_name_loop fi : forall fs scratch, (fi <= fs)%nat -> um (char_name_loop fi scratch) (char_name_loop fs scratch).
Proof.
  induction fi as [|fi IH]; intros fs scratch Hf; [apply um_fuel|]. destruct fs as [|fs]; [lia|]. cbn [char_name_loop].
  assert (H' : forall y, um (char_name_loop fi y) (char_name_loop fs y)) by (intros; apply IH; lia). um_auto.
Qed.
#[export] Hint Resolve um_r6rs_char_hex_loop um_char_name_loop : umdb.
Lemma um_parse_r6rs_char fi fs : (fi <= fs)%nat -> um (parse_r6rs_char fi) (parse_r6rs_char fs).
Proof. intros Hf. unfold parse_r6rs_char. um_auto. Qed.
Lemma um_decode_elisp_char_escape fi fs : (fi <= fs)%nat -> um (decode_elisp_char_escape fi) (decode_elisp_char_escape fs).
Proof. intros Hf. unfold decode_elisp_char_escape, decode_elisp_hex_escape, decode_elisp_octal_escape. um_auto. Qed.
#[export] Hint Resolve um_parse_r6rs_char um_decode_elisp_char_escape : umdb.
Lemma um_parse_elisp_char fi fs : (fi <= fs)%nat -> um (parse_elisp_char fi) (parse_elisp_char fs).
Proof. intros Hf. unfold parse_elisp_char. um_auto. Qed.
#[export] Hint Resolve um_parse_elisp_char : umdb.

Section NumMono.
  Variable fast : bool.
  Variable std_parse : N -> Z -> f64.

  Lemma um_skip_digits fi : forall fs, (fi <= fs)%nat -> um (skip_digits fi) (skip_digits fs).
  Proof.
    induction fi as [|fi IH]; intros fs Hf; [apply um_fuel|]. destruct fs as [|fs]; [lia|]. cbn [skip_digits].
    assert (H' : um (skip_digits fi) (skip_digits fs)) by (apply IH; lia). um_auto.
  Qed.
  Hint Resolve um_skip_digits : umdb.
  Lemma um_parse_exponent_overflow fi fs p s pe : (fi <= fs)%nat -> um (parse_exponent_overflow fi p s pe) (parse_exponent_overflow fs p s pe).
  Proof. intros Hf. unfold parse_exponent_overflow. um_auto. Qed.
  Hint Resolve um_parse_exponent_overflow : umdb.
  Lemma um_exponent_digits fi : forall fs p s pe se e, (fi <= fs)%nat ->
    um (exponent_digits fast std_parse fi p s pe se e) (exponent_digits fast std_parse fs p s pe se e).
  Proof.
    induction fi as [|fi IH]; intros fs p s pe se e Hf; [apply um_fuel|]. destruct fs as [|fs]; [lia|]. cbn [exponent_digits]. cbv zeta.
    assert (H' : forall a b c d e', um (exponent_digits fast std_parse fi a b c d e') (exponent_digits fast std_parse fs a b c d e')) by (intros; apply IH; lia).
    assert (Ho : forall a b c, um (parse_exponent_overflow fi a b c) (parse_exponent_overflow fs a b c)) by (intros; apply um_parse_exponent_overflow; lia).
    um_auto.
  Qed.
  Hint Resolve um_exponent_digits : umdb.
  Lemma um_parse_exponent fi fs p s se : (fi <= fs)%nat -> um (parse_exponent fast std_parse fi p s se) (parse_exponent fast std_parse fs p s se).
  Proof. intros Hf. unfold parse_exponent. um_auto. Qed.
  Hint Resolve um_parse_exponent : umdb.
  Lemma um_decimal_digits fi : forall fs s e o, (fi <= fs)%nat -> um (decimal_digits fi s e o) (decimal_digits fs s e o).
  Proof.
    induction fi as [|fi IH]; intros fs s e o Hf; [apply um_fuel|]. destruct fs as [|fs]; [lia|]. cbn [decimal_digits]. cbv zeta.
    assert (H' : forall a b c, um (decimal_digits fi a b c) (decimal_digits fs a b c)) by (intros; apply IH; lia).
    assert (Hs : um (skip_digits fi) (skip_digits fs)) by (apply um_skip_digits; lia). um_auto.
  Qed.
  Hint Resolve um_decimal_digits : umdb.
  Lemma um_parse_decimal fi fs p s e : (fi <= fs)%nat -> um (parse_decimal fast std_parse fi p s e) (parse_decimal fast std_parse fs p s e).
  Proof. intros Hf. unfold parse_decimal. apply um_bind; [apply um_refl|intros _]. apply um_bind; [auto with umdb|]. intros [[sig ex] one]. um_auto. Qed.
  Hint Resolve um_parse_decimal : umdb.
  Lemma um_parse_long_integer fi : forall fs radix p s e, (fi <= fs)%nat ->
    um (parse_long_integer fast std_parse fi radix p s e) (parse_long_integer fast std_parse fs radix p s e).
  Proof.
    induction fi as [|fi IH]; intros fs radix p s e Hf; [apply um_fuel|]. destruct fs as [|fs]; [lia|]. cbn [parse_long_integer]. cbv zeta.
    assert (H' : forall a b c d, um (parse_long_integer fast std_parse fi a b c d) (parse_long_integer fast std_parse fs a b c d)) by (intros; apply IH; lia).
    assert (Hd : forall a b c, um (parse_decimal fast std_parse fi a b c) (parse_decimal fast std_parse fs a b c)) by (intros; apply um_parse_decimal; lia).
    assert (He : forall a b c, um (parse_exponent fast std_parse fi a b c) (parse_exponent fast std_parse fs a b c)) by (intros; apply um_parse_exponent; lia).
    um_auto.
  Qed.
  Hint Resolve um_parse_long_integer : umdb.
  Lemma um_parse_num_tail fi fs radix p s : (fi <= fs)%nat -> um (parse_num_tail fast std_parse fi radix p s) (parse_num_tail fast std_parse fs radix p s).
  Proof. intros Hf. unfold parse_num_tail. um_auto. Qed.
  Hint Resolve um_parse_num_tail : umdb.
  Lemma um_num_literal_loop fi : forall fs radix p s, (fi <= fs)%nat ->
    um (num_literal_loop fast std_parse fi radix p s) (num_literal_loop fast std_parse fs radix p s).
  Proof.
    induction fi as [|fi IH]; intros fs radix p s Hf; [apply um_fuel|]. destruct fs as [|fs]; [lia|]. cbn [num_literal_loop].
    assert (H' : forall a b c, um (num_literal_loop fast std_parse fi a b c) (num_literal_loop fast std_parse fs a b c)) by (intros; apply IH; lia).
    assert (Ht : forall a b c, um (parse_num_tail fast std_parse fi a b c) (parse_num_tail fast std_parse fs a b c)) by (intros; apply um_parse_num_tail; lia).
    assert (Hl : forall a b c d, um (parse_long_integer fast std_parse fi a b c d) (parse_long_integer fast std_parse fs a b c d)) by (intros; apply um_parse_long_integer; lia).
    um_auto.
  Qed.
  Hint Resolve um_num_literal_loop : umdb.
  Lemma um_parse_num_literal fi fs radix p : (fi <= fs)%nat -> um (parse_num_literal fast std_parse fi radix p) (parse_num_literal fast std_parse fs radix p).
  Proof. intros Hf. unfold parse_num_literal. um_auto. Qed.
End NumMono.
#[export] Hint Resolve um_skip_digits um_parse_exponent_overflow um_exponent_digits um_parse_exponent um_decimal_digits um_parse_decimal
  um_parse_long_integer um_parse_num_tail um_num_literal_loop um_parse_num_literal : umdb.

Section TokenMono.
  Variable fast : bool.
  Variable std_parse : N -> Z -> f64.

  Lemma um_parse_num_token fi fs radix p : (fi <= fs)%nat -> um (parse_num_token fast std_parse fi radix p) (parse_num_token fast std_parse fs radix p).
  Proof. intros Hf. unfold parse_num_token. um_auto. Qed.
  Hint Resolve um_parse_num_token : umdb.
  Lemma um_parse_radix_literal fi fs radix : (fi <= fs)%nat -> um (parse_radix_literal fast std_parse fi radix) (parse_radix_literal fast std_parse fs radix).
  Proof. intros Hf. unfold parse_radix_literal. um_auto. Qed.
  Hint Resolve um_parse_radix_literal : umdb.
  Lemma um_parse_number fi fs : (fi <= fs)%nat -> um (parse_number fast std_parse fi) (parse_number fast std_parse fs).
  Proof. intros Hf. unfold parse_number. um_auto. Qed.
  Hint Resolve um_parse_number : umdb.
  Lemma um_skip_comment fi : forall fs, (fi <= fs)%nat -> um (skip_comment fi) (skip_comment fs).
  Proof.
    induction fi as [|fi IH]; intros fs Hf; [apply um_fuel|]. destruct fs as [|fs]; [lia|]. cbn [skip_comment].
    assert (H' : um (skip_comment fi) (skip_comment fs)) by (apply IH; lia). um_auto.
  Qed.
  Lemma um_parse_whitespace fi : forall fs, (fi <= fs)%nat -> um (parse_whitespace fi) (parse_whitespace fs).
  Proof.
    induction fi as [|fi IH]; intros fs Hf; [apply um_fuel|]. destruct fs as [|fs]; [lia|]. cbn [parse_whitespace].
    assert (H' : um (parse_whitespace fi) (parse_whitespace fs)) by (apply IH; lia).
    assert (Hc : um (skip_comment fi) (skip_comment fs)) by (apply um_skip_comment; lia). um_auto.
  Qed.
  Hint Resolve um_parse_whitespace : umdb.
  Lemma um_parse_symbol fi fs : (fi <= fs)%nat -> um (parse_symbol fi) (parse_symbol fs).
  Proof. intros Hf. unfold parse_symbol. um_auto. Qed.
  Lemma um_parse_symbol_suffix fi fs p : (fi <= fs)%nat -> um (parse_symbol_suffix fi p) (parse_symbol_suffix fs p).
  Proof. intros Hf. unfold parse_symbol_suffix. um_auto. Qed.
  Hint Resolve um_parse_symbol um_parse_symbol_suffix : umdb.
  Lemma um_end_seq fi fs close : (fi <= fs)%nat -> um (end_seq fi close) (end_seq fs close).
  Proof. intros Hf. unfold end_seq. um_auto. Qed.
  Lemma um_expect_end fi fs : (fi <= fs)%nat -> um (expect_end fi) (expect_end fs).
  Proof. intros Hf. unfold expect_end. um_auto. Qed.
  Lemma um_byte_list_loop fi : forall fs close acc, (fi <= fs)%nat ->
    um (byte_list_loop fast std_parse fi close acc) (byte_list_loop fast std_parse fs close acc).
  Proof.
    induction fi as [|fi IH]; intros fs close acc Hf; [apply um_fuel|]. destruct fs as [|fs]; [lia|]. cbn [byte_list_loop].
    assert (H' : forall a b, um (byte_list_loop fast std_parse fi a b) (byte_list_loop fast std_parse fs a b)) by (intros; apply IH; lia).
    assert (Hw : um (parse_whitespace fi) (parse_whitespace fs)) by (apply um_parse_whitespace; lia).
    assert (Hn : um (parse_number fast std_parse fi) (parse_number fast std_parse fs)) by (apply um_parse_number; lia).
    um_auto.
  Qed.
  Lemma um_parse_byte_list fi fs close : (fi <= fs)%nat -> um (parse_byte_list fast std_parse fi close) (parse_byte_list fast std_parse fs close).
  Proof. intros Hf. pose proof (fun a b => um_byte_list_loop fi fs a b Hf). unfold parse_byte_list. um_auto. Qed.
End TokenMono.

Lemma scan_symbol_io_len fuel : forall scratch r b r', scan_symbol_io fuel scratch r = (Ok b, r') ->
  (length b + rem r' <= length scratch + rem r)%nat.
Proof.
  induction fuel as [|f IH]; intros scratch r b r'; [discriminate|]. rewrite scan_symbol_io_unfold.
  pose proof (peek_cases r) as Hc. destruct (r_peek r) as [[[ch|]|e] r1]; [| |discriminate].
  - destruct Hc as [Hb Hle]. destruct (is_symbol_terminator ch).
    + destruct (beq_bytes scratch [46]); [unfold error; destruct (r_position r1); discriminate|].
      unfold ret. intros H. inversion H; subst. lia.
    + intros H. apply IH in H. rewrite app_length in H. cbn [length] in H. pose proof (discard_at ch r1 Hb). lia.
  - destruct (is_truncated_symbol scratch); [unfold error; destruct (r_position r1); discriminate|].
    destruct (beq_bytes scratch [46]); [unfold error; destruct (r_position r1); discriminate|].
    unfold ret. intros H. inversion H; subst. lia.
Qed.
Lemma scan_symbol_slice_len scratch r b r' : scan_symbol_slice scratch r = (Ok b, r') ->
  (length b + rem r' <= length scratch + rem r)%nat.
Proof.
  unfold scan_symbol_slice. pose proof (span_symbol_lens (rinput r) []) as Hl.
  destruct (span_symbol (rinput r) []) as [scanned rest]. cbn [fst snd length] in Hl. cbv zeta.
  destruct (_ && _); [unfold error; destruct (r_position _); discriminate|].
  destruct (beq_bytes _ _); [unfold error; destruct (r_position _); discriminate|].
  unfold ret. intros H. inversion H; subst. rewrite advance_over_rem, app_length. unfold rem. lia.
Qed.
Lemma as_str_same b r x r' : Scan.as_str b r = (Ok x, r') -> x = b /\ r' = r.
Proof. unfold Scan.as_str. destruct (utf8_valid b); [unfold ret; intros H; inversion H; auto|unfold error; destruct (r_position r); discriminate]. Qed.
Lemma finish_str_same b r x r' : finish_str b r = (Ok x, r') -> x = b /\ r' = r.
Proof. unfold finish_str. destruct (rk r); [unfold ret; intros H; inversion H; auto|apply as_str_same|apply as_str_same]. Qed.
Lemma parse_symbol_rd_len fuel scratch r b r' : parse_symbol_rd fuel scratch r = (Ok b, r') ->
  (length b + rem r' <= length scratch + rem r)%nat.
Proof.
  unfold parse_symbol_rd. destruct (rk r); unfold bind.
  - destruct (scan_symbol_slice scratch r) as [[x|e] r1] eqn:E; [|discriminate]. intros H. apply finish_str_same in H. destruct H; subst.
    apply (scan_symbol_slice_len scratch r); exact E.
  - destruct (scan_symbol_slice scratch r) as [[x|e] r1] eqn:E; [|discriminate]. intros H. apply finish_str_same in H. destruct H; subst.
    apply (scan_symbol_slice_len scratch r); exact E.
  - destruct (scan_symbol_io fuel scratch r) as [[x|e] r1] eqn:E; [|discriminate]. intros H. apply as_str_same in H. destruct H; subst.
    apply (scan_symbol_io_len fuel scratch r); exact E.
Qed.

Section TokenIrrelevant.
  Variable ro : parse_options.
  Variable alpha : N -> bool.
  Variable fast : bool.
  Variable std_parse : N -> Z -> f64.
  Hypothesis Hfp : forall pos sig e n, sig <= u64_MAX -> ok n (f64_from_parts fast std_parse pos sig e).

  Lemma number_of_symbol_mono fi fs symbol : (length symbol < fi)%nat -> (fi <= fs)%nat ->
    number_of_symbol fast std_parse fi symbol = number_of_symbol fast std_parse fs symbol.
  Proof.
    intros Hl Hf. unfold number_of_symbol. set (s0 := mk_reader SrcSlice (bytes_events symbol)).
    assert (Hrem : (rem s0 <= length symbol)%nat) by (unfold s0, mk_reader, rem, bytes_events; cbn [rinput]; rewrite map_length; lia).
    destruct (ok_parse_num_literal fast std_parse Hfp fi 10 true (length symbol) rok10 Hl s0 Hrem) as [Hne _].
    destruct (um_parse_num_literal fast std_parse fi fs 10 true Hf s0) as [E|E]; [contradiction|]. rewrite E. reflexivity.
  Qed.

  Hint Resolve um_parse_radix_literal um_parse_num_token um_parse_symbol um_parse_symbol_suffix : umdb.
  Theorem token_fuel_irrelevant n fi fs b r : (rem r <= n)%nat -> (n < fi)%nat -> (fi <= fs)%nat ->
    fst (parse_token ro alpha fast std_parse fi b r) = Err EFuel \/
    parse_token ro alpha fast std_parse fi b r = parse_token ro alpha fast std_parse fs b r.
  Proof.
    intros Hr Hn Hf. unfold parse_token.
    assert (Hum : forall (mi ms : M token), um mi ms -> fst (mi r) = Err EFuel \/ mi r = ms r) by (intros mi ms H; apply H).
    destruct (b =? 35); [apply Hum; um_auto|].
    destruct ((b =? 45) || (b =? 43)); [apply Hum; um_auto|].
    destruct (is_digit b).
    { destruct (ro_digit ro); [|apply Hum; um_auto].
      destruct (um_parse_symbol fi fs Hf r) as [E|E].
      - left. unfold bind. destruct (parse_symbol fi r) as [[x|e] r1]; cbn [fst] in E; [discriminate|]. inversion E. reflexivity.
      - right. unfold bind. rewrite E. destruct (parse_symbol fs r) as [[symbol|e] r1] eqn:Es; [|reflexivity].
        unfold parse_symbol in Es. apply parse_symbol_rd_len in Es. cbn [length] in Es.
        rewrite (number_of_symbol_mono fi fs symbol ltac:(lia) Hf). reflexivity. }
    apply Hum. um_auto.
  Qed.
End TokenIrrelevant.

Definition peq {A} (n : nat) (m1 m2 : PM A) : Prop := forall s, (rem (rd s) <= n)%nat -> m1 s = m2 s.
Definition peqat {A} (b : N) (n : nat) (m1 m2 : PM A) : Prop :=
  forall s, at_byte b (rd s) -> (rem (rd s) <= n)%nat -> m1 s = m2 s.
Definition pmono {A} (n : nat) (m : PM A) : Prop := forall s, (rem (rd s) <= n)%nat -> (rem (rd (snd (m s))) <= rem (rd s))%nat.

Lemma peq_refl {A} n (m : PM A) : peq n m m.
Proof. intros s _. reflexivity. Qed.
Lemma peq_mono {A} n n' (m1 m2 : PM A) : (n <= n')%nat -> peq n' m1 m2 -> peq n m1 m2.
Proof. intros Hn H s Hs. apply H. lia. Qed.
Lemma pmono_pok {A} n (m : PM A) : pok n m -> pmono n m.
Proof. intros H s Hs. apply (H s Hs). Qed.

Lemma peq_bind {A B} n (m1 m2 : PM A) (f1 f2 : A -> PM B) :
  pmono n m1 -> peq n m1 m2 -> (forall a, peq n (f1 a) (f2 a)) -> peq n (pbind m1 f1) (pbind m2 f2).
Proof.
  intros Hm He Hf s Hs. rewrite !pbind_unfold, <- (He s Hs). specialize (Hm s Hs).
  destruct (m1 s) as [[a|e] s1]; cbn [snd] in *; [apply Hf; lia|reflexivity].
Qed.
Lemma peqat_bind {A B} b n (m : PM A) (f1 f2 : A -> PM B) :
  pmono n m -> (forall a, peq n (f1 a) (f2 a)) -> peqat b n (pbind m f1) (pbind m f2).
Proof. intros Hm Hf s _ Hs. apply (peq_bind n m m f1 f2 Hm (peq_refl n m) Hf s Hs). Qed.

Lemma agree_um {A} n (mi ms : M A) : ok n mi -> um mi ms -> agree n mi ms.
Proof. intros Ho Hu r Hr. destruct (Ho r Hr) as [Hne _]. destruct (Hu r) as [E|E]; [contradiction|exact E]. Qed.
Lemma agrees_um {A} k (F : nat -> M A) :
  (forall f n, (k + n < f)%nat -> ok n (F f)) -> (forall f g, (f <= g)%nat -> um (F f) (F g)) -> agrees le k F.
Proof. intros Ho Hu f g n Hf Hn. apply agree_um; [apply Ho; exact Hn|apply Hu; exact Hf]. Qed.
Lemma peq_liftR {A} n (mi ms : M A) : ok n mi -> um mi ms -> peq n (liftR mi) (liftR ms).
Proof. intros Ho Hu s Hs. unfold liftR. rewrite (agree_um n mi ms Ho Hu (rd s) Hs). reflexivity. Qed.

Lemma le_S_inv f g' : (S f <= g')%nat -> exists g, g' = S g /\ (f <= g)%nat.
Proof. intros H. destruct g' as [|g]; [lia|]. exists g. split; [reflexivity|lia]. Qed.

Section ParserMono.
  Variable ro : parse_options.
  Variable alpha : N -> bool.
  Variable fast : bool.
  Variable std_parse : N -> Z -> f64.
  Hypothesis Hfp : forall pos sig e n, sig <= u64_MAX -> ok n (f64_from_parts fast std_parse pos sig e).

  Local Notation next_value := (next_value ro alpha fast std_parse).
  Local Notation parse_list := (parse_list ro alpha fast std_parse).
  Local Notation parse_vector := (parse_vector ro alpha fast std_parse).
  Local Notation next_datum := (next_datum ro alpha fast std_parse).
  Local Notation parse_list_meta := (parse_list_meta ro alpha fast std_parse).
  Local Notation parse_vector_meta := (parse_vector_meta ro alpha fast std_parse).
  Local Notation parse_token := (parse_token ro alpha fast std_parse).

  (* what the side-by-side walk of FuelProofs asks of the reader-level functions, for a second run with at least as much fuel *)
  Lemma agrees_ws : agrees le 1 parse_whitespace.
  Proof. apply agrees_um; [apply ok_parse_whitespace|intros f g; apply um_parse_whitespace]. Qed.
  Lemma agrees_token b : agrees le 0 (fun f => parse_token f b).
  Proof.
    intros f g n Hf Hn r Hr. destruct (ok_parse_token ro alpha fast std_parse Hfp f b n Hn r Hr) as [Hne _].
    destruct (token_fuel_irrelevant ro alpha fast std_parse Hfp n f g b r Hr Hn Hf) as [E|E]; [contradiction|exact E].
  Qed.
  Lemma agrees_end_seq c : agrees le 1 (fun f => end_seq f c).
  Proof. apply agrees_um; [intros f; apply ok_end_seq|intros f g; apply um_end_seq]. Qed.
  Lemma agrees_byte_list c : agrees le 2 (fun f => parse_byte_list fast std_parse f c).
  Proof. apply agrees_um; [intros f; apply (ok_parse_byte_list fast std_parse Hfp)|intros f g; apply um_parse_byte_list]. Qed.
  Lemma agrees_symbol_suffix p : agrees le 0 (fun f => parse_symbol_suffix f p).
  Proof. apply agrees_um; [intros f n; apply ok_parse_symbol_suffix|intros f g; apply um_parse_symbol_suffix]. Qed.

  Theorem mono_values fi : forall fs, (fi <= fs)%nat ->
    (forall n, (2 * n + 3 <= fi)%nat -> peq n (next_value fi) (next_value fs)) /\
    (forall n t acc, (2 * n + 4 <= fi)%nat -> peq n (parse_list fi t acc) (parse_list fs t acc)) /\
    (forall n t acc, (2 * n + 4 <= fi)%nat -> peq n (parse_vector fi t acc) (parse_vector fs t acc)).
  Proof.
    intros fs Hf.
    destruct (both_values ro alpha fast std_parse Hfp le le_S_inv agrees_ws agrees_token agrees_end_seq agrees_byte_list agrees_symbol_suffix fi fs Hf)
      as (Hv & Hl & Hvec).
    split; [intros n Hn s Hs; apply (Hv n Hn s Hs)|]. split; intros n t acc Hn s Hs; [apply (Hl n t acc Hn s Hs)|apply (Hvec n t acc Hn s Hs)].
  Qed.
  Theorem mono_datums fi : forall fs, (fi <= fs)%nat ->
    (forall n, (2 * n + 3 <= fi)%nat -> peq n (next_datum fi) (next_datum fs)) /\
    (forall n t acc, (2 * n + 4 <= fi)%nat -> peq n (parse_list_meta fi t acc) (parse_list_meta fs t acc)) /\
    (forall n t acc, (2 * n + 4 <= fi)%nat -> peq n (parse_vector_meta fi t acc) (parse_vector_meta fs t acc)).
  Proof.
    intros fs Hf.
    destruct (both_datums ro alpha fast std_parse Hfp le le_S_inv agrees_ws agrees_token agrees_end_seq agrees_byte_list agrees_symbol_suffix fi fs Hf)
      as (Hv & Hl & Hvec).
    split; [intros n Hn s Hs; apply (Hv n Hn s Hs)|]. split; intros n t acc Hn s Hs; [apply (Hl n t acc Hn s Hs)|apply (Hvec n t acc Hn s Hs)].
  Qed.
End ParserMono.
