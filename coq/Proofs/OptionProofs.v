(* C08: each parser option governs exactly the tokens it names. Statements
   hold for every option set (no fixed dialect). *)
From Coq Require Import SpecFloat ZifyBool ZifyNat ZifyN.
Require Import Base Value Float PrintOptions ParseOptions Utf8 Reader Scan Num NumberOps Parser.
Require Import ReaderProofs ScanProofs TokenProofs DepthProofs RoundtripProofs.

Section Options.
  Variable alpha : N -> bool.
  Variable fast : bool.
  Variable std_parse : N -> Z -> f64.
  Local Notation parse_token ro := (parse_token ro alpha fast std_parse).
  Local Notation next_value ro := (next_value ro alpha fast std_parse).

  Lemma symbol_token_nil ro :
    symbol_token ro (s2b "nil") =
    match ro_nil ro with NsDefault => TSymbol (s2b "nil") | NsEmptyList => TNull | NsSpecial => TNil end.
  Proof.
    unfold symbol_token. change (ends_with_colon (s2b "nil")) with false. rewrite Bool.andb_false_r.
    destruct (ro_nil ro); reflexivity || (destruct (ro_t ro); reflexivity).
  Qed.

  Lemma symbol_token_t ro :
    symbol_token ro (s2b "t") =
    match ro_t ro with TsTrue => TBool true | TsDefault => TSymbol (s2b "t") end.
  Proof.
    unfold symbol_token. change (ends_with_colon (s2b "t")) with false. rewrite Bool.andb_false_r.
    change (beq_bytes (s2b "t") (s2b "nil")) with false. rewrite Bool.andb_false_r.
    destruct (ro_t ro); reflexivity.
  Qed.

  Lemma symbol_token_postfix ro name : ro_kw_postfix ro = true -> (1 < length name)%nat -> ends_with_colon name = true ->
    symbol_token ro name = TKeyword (removelast name).
  Proof. intros H1 H2 H3. unfold symbol_token. rewrite H1, H3. replace (1 <? length name)%nat with true by lia. reflexivity. Qed.

  Lemma symbol_token_plain ro name :
    ro_kw_postfix ro = false \/ ends_with_colon name = false \/ (length name <= 1)%nat ->
    beq_bytes name (s2b "nil") = false -> beq_bytes name (s2b "t") = false ->
    symbol_token ro name = TSymbol name.
  Proof.
    intros H Hn Ht. unfold symbol_token. rewrite Hn, Ht, !Bool.andb_false_r.
    replace (ro_kw_postfix ro && (1 <? length name)%nat && ends_with_colon name) with false; [reflexivity|].
    destruct H as [->|[->|H]]; [reflexivity|apply eq_sym, Bool.andb_false_r|].
    replace (1 <? length name)%nat with false by lia. now rewrite Bool.andb_false_r.
  Qed.

  Lemma symbol_token_frame ro1 ro2 name :
    ro_kw_postfix ro1 = ro_kw_postfix ro2 -> ro_nil ro1 = ro_nil ro2 -> ro_t ro1 = ro_t ro2 ->
    symbol_token ro1 name = symbol_token ro2 name.
  Proof. intros H1 H2 H3. unfold symbol_token. rewrite H1, H2, H3. reflexivity. Qed.

  Lemma token_colon_any ro fuel :
    parse_token ro fuel 58 =
    if ro_kw_prefix ro then eat_char ;;; s <- parse_symbol fuel ;; ret (TKeyword s)
    else s <- parse_symbol fuel ;; ret (TSymbol s).
  Proof. reflexivity. Qed.

  Lemma token_bracket_any ro fuel :
    parse_token ro fuel 91 =
    (eat_char ;;; match ro_brackets ro with BrVector => ret (TVecOpen 93) | BrList => ret (TListOpen 93) end).
  Proof. reflexivity. Qed.

  Lemma token_paren_any ro fuel : parse_token ro fuel 40 = (eat_char ;;; ret (TListOpen 41)).
  Proof. reflexivity. Qed.

  Lemma token_question_any ro fuel :
    parse_token ro fuel 63 =
    match ro_char ro with
    | ChrElisp => eat_char ;;; c <- parse_elisp_char fuel ;; ret (TChar c)
    | ChrR6RS => name <- parse_symbol fuel ;; ret (symbol_token ro name)
    end.
  Proof. unfold Parser.parse_token. destruct (ro_char ro); reflexivity. Qed.

  Lemma token_digit_any ro fuel b : is_digit b = true ->
    parse_token ro fuel b =
    if ro_digit ro then
      symbol <- parse_symbol fuel ;;
      match number_of_symbol fast std_parse fuel symbol with
      | Some n => ret (TNumber n)
      | None => ret (symbol_token ro symbol)
      end
    else n <- parse_num_token fast std_parse fuel 10 true ;; ret (TNumber n).
  Proof.
    intros H. unfold Parser.parse_token. pose proof H as H'. unfold is_digit, in_range in H'.
    replace (b =? 35) with false by lia. replace ((b =? 45) || (b =? 43)) with false by lia.
    rewrite H. reflexivity.
  Qed.

  Lemma token_string_any ro fuel :
    parse_token ro fuel 34 =
    (eat_char ;;;
     match ro_string ro with
     | StrR6RS => s <- parse_r6rs_str_rd fuel ;; ret (TString s)
     | StrElisp => e <- parse_elisp_str_rd fuel ;;
                   match e with ElMultibyte s => ret (TString s) | ElUnibyte b => ret (TBytes b) end
     end).
  Proof. reflexivity. Qed.

  Lemma token_quote_any ro fuel : parse_token ro fuel 39 = (eat_char ;;; ret (TQuotation (s2b "quote"))).
  Proof. reflexivity. Qed.
  Lemma token_quasiquote_any ro fuel : parse_token ro fuel 96 = (eat_char ;;; ret (TQuotation (s2b "quasiquote"))).
  Proof. reflexivity. Qed.
  Lemma token_unquote_any ro fuel :
    parse_token ro fuel 44 =
    (eat_char ;;; nx <- peek_or_null ;;
     if nx =? 64 then eat_char ;;; ret (TQuotation (s2b "unquote-splicing")) else ret (TQuotation (s2b "unquote"))).
  Proof. reflexivity. Qed.

  Lemma hash_keyword ro fuel r name rest : (length name < fuel)%nat ->
    no_terminator name -> at_terminator rest -> symbol_ok name ->
    at_bytes r (s2b "#:" ++ name ++ rest) -> peeked r ->
    if ro_kw_octo ro then
      exists r', parse_token ro fuel 35 r = (Ok (TKeyword name), r') /\ at_bytes r' rest
    else exists l cl r', parse_token ro fuel 35 r = (Err (ESyntax ExpectedSomeIdent l cl), r').
  Proof.
    intros Hf Hn Ht Hok Ha Hp.
    change (s2b "#:" ++ name ++ rest) with (35 :: 58 :: name ++ rest) in Ha.
    unfold Parser.parse_token. change (35 =? 35) with true. cbv iota.
    step. step. cbn [N.eqb Pos.eqb andb].
    destruct (ro_kw_octo ro).
    - unfold parse_symbol.
      destruct (parse_symbol_spec name fuel [] rest r1 Hf Hn Ht Ha1 Hok) as (r2 & E & Ha2 & Hk2 & _).
      rewrite (bind_ok _ _ _ _ _ E). exists r2. unfold ret. cbn [app]. auto.
    - unfold peek_error. destruct (r_peek_position r1) as [l cl]. exists l, cl, r1. reflexivity.
  Qed.

  Lemma hash_racket ro fuel r name rest : (length name < fuel)%nat ->
    no_terminator name -> at_terminator rest -> symbol_ok (s2b "#%" ++ name) ->
    at_bytes r (s2b "#%" ++ name ++ rest) -> peeked r ->
    if ro_racket ro then
      exists r', parse_token ro fuel 35 r = (Ok (TSymbol (s2b "#%" ++ name)), r') /\ at_bytes r' rest
    else exists l cl r', parse_token ro fuel 35 r = (Err (ESyntax ExpectedSomeIdent l cl), r').
  Proof.
    intros Hf Hn Ht Hok Ha Hp.
    change (s2b "#%" ++ name ++ rest) with (35 :: 37 :: name ++ rest) in Ha.
    unfold Parser.parse_token. change (35 =? 35) with true. cbv iota.
    step. step. cbn [N.eqb Pos.eqb andb].
    destruct (ro_racket ro).
    - unfold parse_symbol_suffix.
      destruct (parse_symbol_spec name fuel (s2b "#%") rest r1 Hf Hn Ht Ha1 Hok) as (r2 & E & Ha2 & Hk2 & _).
      rewrite (bind_ok _ _ _ _ _ E). exists r2. unfold ret. auto.
    - unfold peek_error. destruct (r_peek_position r1) as [l cl]. exists l, cl, r1. reflexivity.
  Qed.

  (* frame: a token's reading depends only on the options that govern
     its first byte *)
  Definition symbolish (b : N) : bool :=
    (b =? 45) || (b =? 43) || is_digit b || is_ascii_alpha b || (b =? 63) || (127 <? b) || memb b SYMBOL_EXTENDED.

  Theorem parse_token_frame ro1 ro2 fuel b r :
    (b = 35 -> ro_kw_octo ro1 = ro_kw_octo ro2 /\ ro_racket ro1 = ro_racket ro2) ->
    (is_digit b = true -> ro_digit ro1 = ro_digit ro2) ->
    (b = 34 -> ro_string ro1 = ro_string ro2) ->
    (b = 91 -> ro_brackets ro1 = ro_brackets ro2) ->
    (b = 58 -> ro_kw_prefix ro1 = ro_kw_prefix ro2) ->
    (b = 63 -> ro_char ro1 = ro_char ro2) ->
    (symbolish b = true -> ro_kw_postfix ro1 = ro_kw_postfix ro2 /\ ro_nil ro1 = ro_nil ro2 /\ ro_t ro1 = ro_t ro2) ->
    parse_token ro1 fuel b r = parse_token ro2 fuel b r.
  Proof.
    intros H35 Hdig H34 H91 H58 H63 Hsym.
    assert (Hst : symbolish b = true -> forall name, symbol_token ro1 name = symbol_token ro2 name).
    { intros Hs name. destruct (Hsym Hs) as (A & B & C). apply symbol_token_frame; assumption. }
    unfold Parser.parse_token.
    destruct (b =? 35) eqn:E35.
    { assert (b = 35) by lia. destruct (H35 H) as [-> ->]. reflexivity. }
    destruct ((b =? 45) || (b =? 43)) eqn:Esign.
    { assert (Hs : symbolish b = true) by (unfold symbolish; rewrite Esign; reflexivity).
      unfold bind. destruct (eat_char r) as [[u|e] r1]; [|reflexivity].
      destruct (peek_or_null r1) as [[nx|e] r2]; [|reflexivity].
      destruct ((nx =? 0) || is_delimiter nx || is_sign_subsequent nx || (nx =? 46) || (127 <? nx)); [|reflexivity].
      destruct (parse_symbol_suffix fuel [b] r2) as [[name|e] r3]; [|reflexivity].
      unfold ret. now rewrite (Hst Hs name). }
    destruct (is_digit b) eqn:Ed.
    { assert (Hs : symbolish b = true) by (unfold symbolish; rewrite Ed, !Bool.orb_true_r; reflexivity).
      rewrite (Hdig eq_refl). destruct (ro_digit ro2); [|reflexivity].
      unfold bind. destruct (parse_symbol fuel r) as [[symbol|e] r1]; [|reflexivity].
      destruct (number_of_symbol fast std_parse fuel symbol); [reflexivity|]. unfold ret. now rewrite (Hst Hs symbol). }
    destruct (b =? 34) eqn:E34.
    { assert (b = 34) by lia. rewrite (H34 H). reflexivity. }
    destruct (b =? 40) eqn:E40; [reflexivity|].
    destruct (b =? 91) eqn:E91.
    { assert (b = 91) by lia. rewrite (H91 H). reflexivity. }
    destruct (b =? 58) eqn:E58.
    { assert (b = 58) by lia. rewrite (H58 H). reflexivity. }
    destruct (is_ascii_alpha b) eqn:Ea.
    { assert (Hs : symbolish b = true) by (unfold symbolish; rewrite Ea, !Bool.orb_true_r; reflexivity).
      unfold bind. destruct (parse_symbol fuel r) as [[name|e] r1]; [|reflexivity]. unfold ret. now rewrite (Hst Hs name). }
    destruct (b =? 63) eqn:E63.
    { assert (b = 63) by lia. rewrite (H63 H).
      assert (Hs : symbolish b = true) by (subst b; reflexivity).
      destruct (ro_char ro2); cbn [andb].
      - change (63 =? 39) with false. subst b. cbn.
        unfold bind. destruct (parse_symbol fuel r) as [[name|e] r1]; [|reflexivity]. unfold ret. now rewrite (Hst Hs name).
      - reflexivity. }
    cbn [andb].
    destruct (b =? 39); [reflexivity|]. destruct (b =? 96); [reflexivity|]. destruct (b =? 44); [reflexivity|].
    destruct (127 <? b) eqn:Ehi.
    { assert (Hs : symbolish b = true) by (unfold symbolish; rewrite Ehi, !Bool.orb_true_r; reflexivity).
      unfold bind. destruct (eat_char r) as [[u|e] r1]; [|reflexivity].
      destruct (decode_utf8_sequence_b b r1) as [[p|e] r2]; [|reflexivity].
      destruct (negb (alpha (snd p))); [reflexivity|].
      destruct (parse_symbol_suffix fuel (fst p) r2) as [[name|e] r3]; [|reflexivity]. unfold ret. now rewrite (Hst Hs name). }
    destruct (memb b SYMBOL_EXTENDED) eqn:Eext; [|reflexivity].
    assert (Hs : symbolish b = true) by (unfold symbolish; rewrite Eext, !Bool.orb_true_r; reflexivity).
    unfold bind. destruct (parse_symbol fuel r) as [[name|e] r1]; [|reflexivity]. unfold ret. now rewrite (Hst Hs name).
  Qed.

  Lemma quotation_reads ro f r D b r0 r1 name : 1 < D <= 128 ->
    parse_whitespace f r = (Ok (Some b), r0) -> parse_token ro f b r0 = (Ok (TQuotation name), r1) ->
    forall d r', next_value ro f (mkp r1 (D - 1)) = (POk (Some d), mkp r' (D - 1)) ->
                 next_value ro (S f) (mkp r D) = (POk (Some (vlist [Symbol name; d])), mkp r' D).
  Proof.
    intros HD E0 E1 d r' E. cbn [Parser.next_value].
    rewrite (pbind_eq _ _ _ _ _ (liftR_ok _ r D _ _ E0)).
    rewrite (pbind_eq _ _ _ _ _ (liftR_ok _ r0 D _ _ E1)). cbv beta iota.
    rewrite (pbind_eq _ _ _ _ _ (enter_ok r1 D (proj1 HD))).
    rewrite (pbind_eq _ _ _ _ _ (attempt_ok _ _ _ _ E)).
    rewrite (pbind_eq _ _ _ _ _ (inc_ok r' (D - 1) ltac:(lia))).
    replace (D - 1 + 1) with D by lia. reflexivity.
  Qed.

  (* 'x  `x  ,@x *)
  Definition shorthand (text name : bytes) : Prop :=
    (text = [39] /\ name = s2b "quote") \/ (text = [96] /\ name = s2b "quasiquote") \/
    (text = [44; 64] /\ name = s2b "unquote-splicing").

  Theorem quote_shorthand_reads ro f r D text name rest : shorthand text name -> (2 <= f)%nat -> 1 < D <= 128 ->
    at_bytes r (text ++ rest) ->
    exists r1, at_bytes r1 rest /\ rk r1 = rk r /\
      forall d r', next_value ro f (mkp r1 (D - 1)) = (POk (Some d), mkp r' (D - 1)) ->
                   next_value ro (S f) (mkp r D) = (POk (Some (vlist [Symbol name; d])), mkp r' D).
  Proof.
    intros Hsh Hf HD Ha.
    destruct Hsh as [[-> ->]|[[-> ->]|[-> ->]]]; cbn [app] in Ha.
    - destruct (ws_here f r 39 rest ltac:(lia) Ha ltac:(split; [reflexivity|discriminate])) as (r0 & E0 & Ha0 & Hp0 & Hk0).
      destruct (m_eat r0 39 rest Ha0 Hp0) as (r1 & E1 & Ha1 & Hk1).
      exists r1. split; [assumption|]. split; [congruence|]. apply (quotation_reads ro f r D 39 r0 r1 _ HD E0).
      rewrite token_quote_any, (bind_ok _ _ _ _ _ E1). reflexivity.
    - destruct (ws_here f r 96 rest ltac:(lia) Ha ltac:(split; [reflexivity|discriminate])) as (r0 & E0 & Ha0 & Hp0 & Hk0).
      destruct (m_eat r0 96 rest Ha0 Hp0) as (r1 & E1 & Ha1 & Hk1).
      exists r1. split; [assumption|]. split; [congruence|]. apply (quotation_reads ro f r D 96 r0 r1 _ HD E0).
      rewrite token_quasiquote_any, (bind_ok _ _ _ _ _ E1). reflexivity.
    - destruct (ws_here f r 44 (64 :: rest) ltac:(lia) Ha ltac:(split; [reflexivity|discriminate])) as (r0 & E0 & Ha0 & Hp0 & Hk0).
      destruct (m_eat r0 44 _ Ha0 Hp0) as (r1 & E1 & Ha1 & Hk1).
      destruct (m_peek_or_null_cons r1 64 rest Ha1) as (r2 & E2 & Ha2 & Hp2 & Hk2).
      destruct (m_eat r2 64 rest Ha2 Hp2) as (r3 & E3 & Ha3 & Hk3).
      exists r3. split; [assumption|]. split; [congruence|]. apply (quotation_reads ro f r D 44 r0 r3 _ HD E0).
      rewrite token_unquote_any, (bind_ok _ _ _ _ _ E1), (bind_ok _ _ _ _ _ E2). change (64 =? 64) with true. cbv iota.
      rewrite (bind_ok _ _ _ _ _ E3). reflexivity.
  Qed.

  Theorem unquote_reads ro f r D c rest : c <> 64 -> (2 <= f)%nat -> 1 < D <= 128 ->
    at_bytes r (44 :: c :: rest) ->
    exists r1, at_bytes r1 (c :: rest) /\ rk r1 = rk r /\
      forall d r', next_value ro f (mkp r1 (D - 1)) = (POk (Some d), mkp r' (D - 1)) ->
                   next_value ro (S f) (mkp r D) = (POk (Some (vlist [Symbol (s2b "unquote"); d])), mkp r' D).
  Proof.
    intros Hc Hf HD Ha.
    destruct (ws_here f r 44 (c :: rest) ltac:(lia) Ha ltac:(split; [reflexivity|discriminate])) as (r0 & E0 & Ha0 & Hp0 & Hk0).
    destruct (m_eat r0 44 _ Ha0 Hp0) as (r1 & E1 & Ha1 & Hk1).
    destruct (m_peek_or_null_cons r1 c rest Ha1) as (r2 & E2 & Ha2 & Hp2 & Hk2).
    exists r2. split; [assumption|]. split; [congruence|]. apply (quotation_reads ro f r D 44 r0 r2 _ HD E0).
    rewrite token_unquote_any, (bind_ok _ _ _ _ _ E1), (bind_ok _ _ _ _ _ E2).
    replace (c =? 64) with false by lia. reflexivity.
  Qed.
End Options.
