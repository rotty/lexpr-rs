(* The two-run companion of RelFramework: any relation between two readers that
   the reader primitives preserve while returning equal results is preserved,
   with equal results, by every scanner, number routine and token function, and
   by next_value / next_datum with their list and vector loops. Because the two
   runs return the same result at every step they take the same branches, so
   the error-recovery structure needs no special laws here. Instance: a stream
   with io::ErrorKind::Interrupted results interleaved anywhere reads exactly
   like the stream without them (C06). *)
From Coq Require Import SpecFloat.
Require Import Base Value Float PrintOptions ParseOptions Utf8 Reader Scan Num NumberOps Parser.
Require Import RelFramework.

Section SimM.
  Variable rel : reader -> reader -> Prop.
  (* same result, related again, and the kind is kept: a Read method that
     dispatches on the kind is then walked on the branch it takes (sim_by_kind) *)
  Definition out2 {A} (r1 : reader) (x1 x2 : res A * reader) : Prop :=
    fst x1 = fst x2 /\ rel (snd x1) (snd x2) /\ rk (snd x1) = rk r1.
  Definition sim {A} (m : M A) : Prop := forall r1 r2, rel r1 r2 -> out2 r1 (m r1) (m r2).
  (* the same for readers that are not streams: SliceRead's bulk scans are only ever run on those *)
  Definition simS {A} (m : M A) : Prop := forall r1 r2, rel r1 r2 -> rk r1 <> SrcIo -> out2 r1 (m r1) (m r2).
  Hypothesis rel_io : forall r1 r2, rel r1 r2 -> (rk r1 = SrcIo <-> rk r2 = SrcIo).
  Definition same_kind : Prop := forall r1 r2, rel r1 r2 -> rk r1 = rk r2.
  Hypothesis sim_peek : sim peek.
  Hypothesis sim_next : sim next_char.
  Hypothesis sim_eat : sim eat_char.
  Hypothesis sim_error : forall A c, sim (@error A c).
  Hypothesis sim_peek_error : forall A c, sim (@peek_error A c).
  Hypothesis sim_error_consume : forall A c, sim (@error_consume A c).
  Hypothesis simS_take_run : simS take_run.
  Hypothesis simS_take_symbol : simS take_symbol_run.

  Lemma sim_ret {A} (a : A) : sim (ret a).
  Proof. intros r1 r2 H. split; [reflexivity|split; [exact H|reflexivity]]. Qed.

  Lemma sim_bind {A B} (m : M A) (f : A -> M B) : sim m -> (forall a, sim (f a)) -> sim (bind m f).
  Proof.
    intros Hm Hf r1 r2 H. unfold bind, out2. destruct (Hm r1 r2 H) as (E & Hr & Hk).
    destruct (m r1) as [[a|e] r1']; destruct (m r2) as [[a2|e2] r2']; cbn [fst snd] in *; try discriminate.
    - inversion E; subst a2. destruct (Hf a r1' r2' Hr) as (E2 & Hr2 & Hk2). repeat split; auto. congruence.
    - inversion E; subst e2. repeat split; auto.
  Qed.

  Lemma sim_out_of_fuel {A} : sim (@out_of_fuel A).
  Proof. intros r1 r2 H. split; [reflexivity|split; [exact H|reflexivity]]. Qed.

  Lemma sim_ext {A} (m m' : M A) : (forall r, m r = m' r) -> sim m' -> sim m.
  Proof. intros E H r1 r2 Hr. unfold out2. rewrite !E. apply H. exact Hr. Qed.

  Lemma sim_by_rk {A} (m : M A) (f : src_kind -> M A) : same_kind ->
    (forall r, m r = f (rk r) r) -> (forall k, sim (f k)) -> sim m.
  Proof. intros rel_rk E H r1 r2 Hr. unfold out2. rewrite !E. rewrite <- (rel_rk r1 r2 Hr). apply (H (rk r1)). exact Hr. Qed.

  Lemma simS_of_sim {A} (m : M A) : sim m -> simS m.
  Proof. intros H r1 r2 Hr _. apply H. exact Hr. Qed.
  Lemma simS_bind {A B} (m : M A) (f : A -> M B) : simS m -> (forall a, simS (f a)) -> simS (bind m f).
  Proof.
    intros Hm Hf r1 r2 H Hio. unfold bind, out2. destruct (Hm r1 r2 H Hio) as (E & Hr & Hk).
    destruct (m r1) as [[a|e] r1']; destruct (m r2) as [[a2|e2] r2']; cbn [fst snd] in *; try discriminate.
    - inversion E; subst a2. destruct (Hf a r1' r2' Hr ltac:(congruence)) as (E2 & Hr2 & Hk2). repeat split; auto. congruence.
    - inversion E; subst e2. repeat split; auto.
  Qed.
  Lemma simS_ext {A} (m m' : M A) : (forall r, m r = m' r) -> simS m' -> simS m.
  Proof. intros E H r1 r2 Hr Hio. unfold out2. rewrite !E. apply H; assumption. Qed.
  Lemma sim_by_kind {A} (m fio fsl : M A) :
    (forall r, m r = match rk r with SrcIo => fio r | _ => fsl r end) -> sim fio -> simS fsl -> sim m.
  Proof.
    intros E Hio Hsl r1 r2 Hr. rewrite !E. pose proof (rel_io r1 r2 Hr) as [Hk1 Hk2].
    destruct (rk r1) eqn:E1; destruct (rk r2) eqn:E2;
      try (discriminate (Hk1 eq_refl)); try (discriminate (Hk2 eq_refl));
      first [apply Hio; exact Hr | apply Hsl; [exact Hr|congruence]].
  Qed.

  Ltac sim_walk lem :=
    plain_walk (@sim) lem (@sim_ext) (@sim_ret) (@sim_out_of_fuel) sim_error sim_peek_error (@sim_bind)
               sim_peek sim_next sim_eat sim_error_consume.

  Lemma sim_peek_or_null : sim peek_or_null.
  Proof using sim_peek. sim_walk walk_peek_or_null. Qed.
  Lemma sim_next_or_eof : sim next_or_eof.
  Proof using sim_next sim_error. sim_walk walk_next_or_eof. Qed.
  Lemma sim_next_or_eof_char : sim next_or_eof_char.
  Proof using sim_next sim_error. sim_walk walk_next_or_eof_char. Qed.
  Lemma sim_as_str (b : bytes) : sim (Scan.as_str b).
  Proof. sim_walk walk_as_str. Qed.
  (* the one place where a &str and a byte slice are treated differently *)
  Lemma sim_finish_str_same b : same_kind -> sim (finish_str b).
  Proof.
    intros rel_rk.
    apply (sim_by_rk _ (fun k => match k with SrcStr => ret b | _ => Scan.as_str b end) rel_rk);
      [intros r; unfold finish_str; destruct (rk r); reflexivity|].
    intros k; destruct k; first [apply sim_ret | apply sim_as_str].
  Qed.

  Ltac simS_walk lem :=
    plain_walk (@simS) lem (@simS_ext) (fun A a => simS_of_sim _ (@sim_ret A a)) (fun A => simS_of_sim _ (@sim_out_of_fuel A))
               (fun A c => simS_of_sim _ (sim_error A c)) (fun A c => simS_of_sim _ (sim_peek_error A c)) (@simS_bind)
               (simS_of_sim _ sim_peek) (simS_of_sim _ sim_next) (simS_of_sim _ sim_eat)
               (fun A c => simS_of_sim _ (sim_error_consume A c)).
  Lemma sim_scan_symbol_io fuel : forall scratch, sim (scan_symbol_io fuel scratch).
  Proof. sim_walk walk_scan_symbol_io. Qed.
  Lemma sim_scan_symbol_slice scratch : simS (scan_symbol_slice scratch).
  Proof. simS_walk walk_scan_symbol_slice; exact simS_take_symbol. Qed.
  Lemma sim_parse_symbol_rd_same fuel scratch : same_kind -> sim (parse_symbol_rd fuel scratch).
  Proof.
    intros rel_rk.
    apply (sim_by_kind _ (b <- scan_symbol_io fuel scratch ;; Scan.as_str b) (b <- scan_symbol_slice scratch ;; finish_str b));
      [intros r; unfold parse_symbol_rd; destruct (rk r); reflexivity| |].
    - apply sim_bind; [apply sim_scan_symbol_io|apply sim_as_str].
    - apply simS_bind; [apply sim_scan_symbol_slice|intros b; apply simS_of_sim, sim_finish_str_same, rel_rk].
  Qed.
  (* for readers of one kind this is the lemma above; a relation between a &str
     and a slice reader would need an argument of its own: a hypothesis *)
  Hypothesis sim_parse_symbol_rd : forall fuel scratch, sim (parse_symbol_rd fuel scratch).
  Lemma sim_hex_escape_loop fuel : forall n, sim (hex_escape_loop fuel n).
  Proof. sim_walk walk_hex_escape_loop. Qed.
  Lemma sim_parse_r6rs_escape fuel : sim (parse_r6rs_escape fuel).
  Proof using sim_next sim_error. sim_walk walk_parse_r6rs_escape. Qed.
  Lemma sim_r6rs_str_io fuel : forall scratch, sim (r6rs_str_io fuel scratch).
  Proof. sim_walk walk_r6rs_str_io. Qed.
  Lemma sim_r6rs_str_slice fuel : forall scratch, simS (r6rs_str_slice fuel scratch).
  Proof. simS_walk walk_r6rs_str_slice; exact simS_take_run. Qed.
  Lemma sim_parse_r6rs_str_rd_same fuel : same_kind -> sim (parse_r6rs_str_rd fuel).
  Proof.
    intros rel_rk.
    apply (sim_by_kind _ (b <- r6rs_str_io fuel [] ;; Scan.as_str b) (b <- r6rs_str_slice fuel [] ;; finish_str b));
      [intros r; unfold parse_r6rs_str_rd; destruct (rk r); reflexivity| |].
    - apply sim_bind; [apply sim_r6rs_str_io|apply sim_as_str].
    - apply simS_bind; [apply sim_r6rs_str_slice|intros b; apply simS_of_sim, sim_finish_str_same, rel_rk].
  Qed.
  Hypothesis sim_parse_r6rs_str_rd : forall fuel, sim (parse_r6rs_str_rd fuel).
  Lemma sim_elisp_hex_loop fuel : forall n, sim (elisp_hex_loop fuel n).
  Proof. sim_walk walk_elisp_hex_loop. Qed.
  Lemma sim_decode_elisp_uni_escape k : forall n, sim (decode_elisp_uni_escape k n).
  Proof. sim_walk walk_decode_elisp_uni_escape. Qed.
  Lemma sim_elisp_octal_loop fuel : forall n, sim (elisp_octal_loop fuel n).
  Proof. sim_walk walk_elisp_octal_loop. Qed.
  Lemma sim_elisp_char_escape_of n : sim (elisp_char_escape_of n).
  Proof. sim_walk walk_elisp_char_escape_of. Qed.
  Lemma sim_elisp_uni_escape_of n : sim (elisp_uni_escape_of n).
  Proof. sim_walk walk_elisp_uni_escape_of. Qed.
  Lemma sim_parse_elisp_escape fuel : sim (parse_elisp_escape fuel).
  Proof using sim_peek sim_next sim_eat sim_error. sim_walk walk_parse_elisp_escape. Qed.
  Lemma sim_elisp_finish fl scratch : sim (elisp_finish fl scratch).
  Proof using sim_error. sim_walk walk_elisp_finish. Qed.
  Lemma sim_elisp_str_io fuel : forall fl scratch, sim (elisp_str_io fuel fl scratch).
  Proof. sim_walk walk_elisp_str_io. Qed.
  Lemma sim_elisp_str_slice fuel : forall fl scratch, simS (elisp_str_slice fuel fl scratch).
  Proof. simS_walk walk_elisp_str_slice; exact simS_take_run. Qed.
  Lemma sim_parse_elisp_str_rd fuel : sim (parse_elisp_str_rd fuel).
  Proof using rel_io sim_peek sim_next sim_eat sim_error simS_take_run.
    apply (sim_by_kind _ (elisp_str_io fuel {| seen_ub := false; seen_mb := false; seen_na := false |} [])
                         (elisp_str_slice fuel {| seen_ub := false; seen_mb := false; seen_na := false |} []));
      [intros r; unfold parse_elisp_str_rd; cbv zeta; destruct (rk r); reflexivity| |].
    - apply sim_elisp_str_io.
    - apply sim_elisp_str_slice.
  Qed.
  Lemma sim_take_bytes k : forall acc, sim (take_bytes k acc).
  Proof. sim_walk walk_take_bytes. Qed.
  Lemma sim_decode_utf8_sequence_b c : sim (decode_utf8_sequence_b c).
  Proof using sim_next sim_error. sim_walk walk_decode_utf8_sequence_b. Qed.
  Lemma sim_decode_utf8_sequence c : sim (decode_utf8_sequence c).
  Proof using sim_next sim_error. sim_walk walk_decode_utf8_sequence. Qed.
  Lemma sim_r6rs_char_hex_loop fuel : forall n first, sim (r6rs_char_hex_loop fuel n first).
  Proof. sim_walk walk_r6rs_char_hex_loop. Qed.
  Lemma sim_char_name_loop fuel : forall scratch, sim (char_name_loop fuel scratch).
  Proof. sim_walk walk_char_name_loop. Qed.
  Lemma sim_open_ended_char n : sim (open_ended_char n).
  Proof using sim_peek sim_error. sim_walk walk_open_ended_char. Qed.
  Lemma sim_parse_r6rs_char fuel : sim (parse_r6rs_char fuel).
  Proof using sim_peek sim_next sim_eat sim_error. sim_walk walk_parse_r6rs_char. Qed.
  Lemma sim_as_char (n : N) : sim (Scan.as_char n).
  Proof using sim_error. sim_walk walk_as_char. Qed.
  Lemma sim_decode_elisp_char_escape fuel : sim (decode_elisp_char_escape fuel).
  Proof using sim_peek sim_next sim_eat sim_error. sim_walk walk_decode_elisp_char_escape. Qed.
  Lemma sim_parse_elisp_char fuel : sim (parse_elisp_char fuel).
  Proof using sim_peek sim_next sim_eat sim_error. sim_walk walk_parse_elisp_char. Qed.

  Variable fast : bool.
  Variable std_parse : N -> Z -> f64.
  Lemma sim_fast_loop fuel : forall f e, sim (f64_from_parts_fast_loop fuel f e).
  Proof. sim_walk walk_fast_loop. Qed.
  Lemma sim_f64_from_parts pos sig e : sim (f64_from_parts fast std_parse pos sig e).
  Proof using sim_error. sim_walk walk_f64_from_parts. Qed.
  Lemma sim_skip_digits fuel : sim (skip_digits fuel).
  Proof using sim_peek sim_eat. sim_walk walk_skip_digits. Qed.
  Lemma sim_parse_exponent_overflow fuel p s pe : sim (parse_exponent_overflow fuel p s pe).
  Proof using sim_peek sim_eat sim_error. sim_walk walk_parse_exponent_overflow. Qed.
  Lemma sim_exponent_digits fuel : forall p s pe se e, sim (exponent_digits fast std_parse fuel p s pe se e).
  Proof. sim_walk walk_exponent_digits. Qed.
  Lemma sim_parse_exponent fuel p s se : sim (parse_exponent fast std_parse fuel p s se).
  Proof using sim_peek sim_next sim_eat sim_error. sim_walk walk_parse_exponent. Qed.
  Lemma sim_decimal_digits fuel : forall s e o, sim (decimal_digits fuel s e o).
  Proof. sim_walk walk_decimal_digits. Qed.
  Lemma sim_parse_decimal fuel p s e : sim (parse_decimal fast std_parse fuel p s e).
  Proof using sim_peek sim_next sim_eat sim_error sim_peek_error. sim_walk walk_parse_decimal. Qed.
  Lemma sim_parse_long_integer fuel : forall radix p s e, sim (parse_long_integer fast std_parse fuel radix p s e).
  Proof using sim_peek sim_next sim_eat sim_error sim_peek_error. sim_walk walk_parse_long_integer. Qed.
  Lemma sim_parse_num_tail fuel radix p s : sim (parse_num_tail fast std_parse fuel radix p s).
  Proof using sim_peek sim_next sim_eat sim_error sim_peek_error. sim_walk walk_parse_num_tail. Qed.
  Lemma sim_num_literal_loop fuel : forall radix p s, sim (num_literal_loop fast std_parse fuel radix p s).
  Proof. sim_walk walk_num_literal_loop. Qed.
  Lemma sim_parse_num_literal fuel radix p : sim (parse_num_literal fast std_parse fuel radix p).
  Proof using sim_peek sim_next sim_eat sim_error sim_peek_error. sim_walk walk_parse_num_literal. Qed.

  Variable ro : parse_options.
  Variable alpha : N -> bool.
  Lemma sim_skip_comment fuel : sim (skip_comment fuel).
  Proof using sim_next. sim_walk walk_skip_comment. Qed.
  Lemma sim_parse_whitespace fuel : sim (parse_whitespace fuel).
  Proof using sim_peek sim_next sim_eat. sim_walk walk_parse_whitespace. Qed.
  Lemma sim_parse_symbol fuel : sim (parse_symbol fuel).
  Proof using sim_parse_symbol_rd. apply sim_parse_symbol_rd. Qed.
  Lemma sim_parse_symbol_suffix fuel p : sim (parse_symbol_suffix fuel p).
  Proof using sim_parse_symbol_rd. apply sim_parse_symbol_rd. Qed.
  Lemma sim_expect_ident ident : sim (expect_ident ident).
  Proof using sim_next sim_error. sim_walk walk_expect_ident. Qed.
  Lemma sim_parse_num_token fuel radix p : sim (parse_num_token fast std_parse fuel radix p).
  Proof using sim_peek sim_next sim_eat sim_error sim_peek_error. sim_walk walk_parse_num_token. Qed.
  Lemma sim_parse_radix_literal fuel radix : sim (parse_radix_literal fast std_parse fuel radix).
  Proof using sim_peek sim_next sim_eat sim_error sim_peek_error. sim_walk walk_parse_radix_literal. Qed.
  Lemma sim_parse_number fuel : sim (parse_number fast std_parse fuel).
  Proof using sim_peek sim_next sim_eat sim_error sim_peek_error. sim_walk walk_parse_number. Qed.
  Lemma sim_parse_token fuel b : sim (parse_token ro alpha fast std_parse fuel b).
  Proof. sim_walk walk_parse_token; auto using sim_parse_elisp_str_rd. Qed.
  Lemma sim_end_seq fuel close : sim (end_seq fuel close).
  Proof. sim_walk walk_end_seq. Qed.
  Lemma sim_expect_end fuel : sim (expect_end fuel).
  Proof. sim_walk walk_expect_end. Qed.
  Lemma sim_byte_list_loop fuel : forall close acc, sim (byte_list_loop fast std_parse fuel close acc).
  Proof. sim_walk walk_byte_list_loop. Qed.
  Lemma sim_parse_byte_list fuel close : sim (parse_byte_list fast std_parse fuel close).
  Proof. sim_walk walk_parse_byte_list. Qed.
  Lemma sim_position : sim position.
  Proof.
    intros r1 r2 H. unfold position, out2. cbn [fst snd]. split; [|split; [exact H|reflexivity]].
    (* error reports r_position: equal errors, equal positions *)
    pose proof (sim_error token ExpectedSomeValue r1 r2 H) as [E _].
    unfold error in E. destruct (r_position r1), (r_position r2). cbn [fst] in E. inversion E. reflexivity.
  Qed.

  Definition prel (s1 s2 : pstate) : Prop := rel (rd s1) (rd s2) /\ depth s1 = depth s2.
  Definition psim {A} (m : PM A) : Prop :=
    forall s1 s2, prel s1 s2 -> fst (m s1) = fst (m s2) /\ prel (snd (m s1)) (snd (m s2)).

  Lemma psim_pret {A} (a : A) : psim (pret a).
  Proof. intros s1 s2 H. split; [reflexivity|exact H]. Qed.
  Lemma psim_pfail {A} e : psim (@pfail A e).
  Proof. intros s1 s2 H. split; [reflexivity|exact H]. Qed.
  Lemma psim_panic {A} k : psim (@panic A k).
  Proof. intros s1 s2 H. split; [reflexivity|exact H]. Qed.
  Lemma psim_liftR {A} (m : M A) : sim m -> psim (liftR m).
  Proof.
    intros Hm s1 s2 [Hr Hd]. unfold liftR. destruct (Hm (rd s1) (rd s2) Hr) as (E & Hr' & _).
    destruct (m (rd s1)) as [[a|e] r1']; destruct (m (rd s2)) as [[a2|e2] r2']; cbn [fst snd] in *; try discriminate;
      inversion E; subst; (split; [reflexivity|split; [exact Hr'|exact Hd]]).
  Qed.
  Lemma psim_bind {A B} (m : PM A) (f : A -> PM B) : psim m -> (forall a, psim (f a)) -> psim (pbind m f).
  Proof.
    intros Hm Hf s1 s2 H. unfold pbind. destruct (Hm s1 s2 H) as [E Hr].
    destruct (m s1) as [[a|e] s1']; destruct (m s2) as [[a2|e2] s2']; cbn [fst snd] in *; try discriminate.
    - inversion E; subst a2. apply Hf. exact Hr.
    - inversion E; subst e2. split; [reflexivity|exact Hr].
  Qed.
  Lemma psim_get_depth : psim get_depth.
  Proof. intros s1 s2 [Hr Hd]. unfold get_depth. cbn [fst snd]. rewrite Hd. split; [reflexivity|split; assumption]. Qed.
  Lemma psim_set_depth d : psim (set_depth d).
  Proof. intros s1 s2 [Hr Hd]. unfold set_depth. cbn [fst snd rd depth]. split; [reflexivity|split; [exact Hr|reflexivity]]. Qed.
  Lemma psim_attempt {A} (m : PM A) : psim m -> psim (attempt m).
  Proof.
    intros Hm s1 s2 H. unfold attempt. destruct (Hm s1 s2 H) as [E Hr].
    destruct (m s1) as [[a|[e|k]] s1']; destruct (m s2) as [[a2|[e2|k2]] s2']; cbn [fst snd] in *; try discriminate;
      inversion E; subst; try (split; [reflexivity|exact Hr]).
    destruct e2; (split; [reflexivity|exact Hr]).
  Qed.
  Lemma psim_both {A} (r : res A) (e : res unit) : psim (both r e).
  Proof. destruct r; destruct e; cbn [both]; first [apply psim_pret|apply psim_pfail]. Qed.
  Lemma psim_lift {A} (r : res A) : psim (lift r).
  Proof. destruct r; cbn [lift]; first [apply psim_pret|apply psim_pfail]. Qed.

  Lemma psim_dec_depth : psim dec_depth.
  Proof. unfold dec_depth. apply psim_bind; [apply psim_get_depth|]. intros d. destruct (d =? 0); [apply psim_panic|apply psim_set_depth]. Qed.
  Lemma psim_inc_depth : psim inc_depth.
  Proof. unfold inc_depth. apply psim_bind; [apply psim_get_depth|]. intros d. destruct (255 <=? d); [apply psim_panic|apply psim_set_depth]. Qed.
  Lemma psim_enter_nesting : psim enter_nesting.
  Proof.
    unfold enter_nesting. apply psim_bind; [apply psim_dec_depth|]. intros _. apply psim_bind; [apply psim_get_depth|]. intros d.
    destruct (d =? 0); [|apply psim_pret]. apply psim_bind; [apply psim_inc_depth|]. intros _. apply psim_liftR, sim_peek_error.
  Qed.
  Lemma psim_nest_seq {A B} (body : PM A) (endm : M unit) (k : A -> PM B) : psim body -> sim endm -> (forall a, psim (k a)) ->
    psim (pbind (attempt body) (fun r => pbind inc_depth (fun _ => pbind (attempt (liftR endm)) (fun e => pbind (both r e) k)))).
  Proof.
    intros Hb He Hk. apply psim_bind; [apply psim_attempt, Hb|]. intros r. apply psim_bind; [apply psim_inc_depth|]. intros _.
    apply psim_bind; [apply psim_attempt, psim_liftR, He|]. intros e. apply psim_bind; [apply psim_both|exact Hk].
  Qed.
  Lemma psim_nest_quote {A B} (body : PM A) (k : A -> PM B) : psim body -> (forall a, psim (k a)) ->
    psim (pbind (attempt body) (fun r => pbind inc_depth (fun _ => pbind (lift r) k))).
  Proof.
    intros Hb Hk. apply psim_bind; [apply psim_attempt, Hb|]. intros r. apply psim_bind; [apply psim_inc_depth|]. intros _.
    apply psim_bind; [apply psim_lift|exact Hk].
  Qed.

  Ltac psim_walk lem :=
    plain_pwalk lem (@sim) (@psim) (@psim_pret) (fun A => @psim_pfail A (XErr EFuel)) (@psim_bind) (@psim_liftR) psim_enter_nesting
                (@psim_nest_seq) (@psim_nest_quote);
    auto using sim_peek_error, sim_peek, sim_bind, sim_eat, sim_position, sim_parse_whitespace, sim_parse_token,
      sim_parse_symbol_suffix, sim_parse_byte_list, sim_end_seq.

  Local Notation next_value := (next_value ro alpha fast std_parse).
  Local Notation parse_list := (parse_list ro alpha fast std_parse).
  Local Notation parse_vector := (parse_vector ro alpha fast std_parse).
  Local Notation next_datum := (next_datum ro alpha fast std_parse).
  Local Notation parse_list_meta := (parse_list_meta ro alpha fast std_parse).
  Local Notation parse_vector_meta := (parse_vector_meta ro alpha fast std_parse).

  Theorem psim_values fuel :
    psim (next_value fuel) /\ (forall t acc, psim (parse_list fuel t acc)) /\ (forall t acc, psim (parse_vector fuel t acc)).
  Proof. psim_walk pwalk_values. Qed.

  Theorem psim_datums fuel :
    psim (next_datum fuel) /\ (forall t acc, psim (parse_list_meta fuel t acc)) /\
    (forall t acc, psim (parse_vector_meta fuel t acc)).
  Proof. psim_walk pwalk_datums. Qed.

  Theorem psim_expect_value fuel : psim (expect_value ro alpha fast std_parse fuel).
  Proof. psim_walk pwalk_expect_value. Qed.
  Theorem psim_expect_datum fuel : psim (expect_datum ro alpha fast std_parse fuel).
  Proof. psim_walk pwalk_expect_datum. Qed.
  Theorem psim_expect_end fuel : psim (expect_end_p fuel).
  Proof. apply psim_liftR, sim_expect_end. Qed.
End SimM.
