(* C05: a decimal literal with a fraction and/or an exponent whose digits fit
   in 2^53 and whose exponent is at most 22 in magnitude reads, with
   fast-float-parsing, as the correctly rounded double of the value it denotes:
   DecimalProofs (text -> significand, exponent) composed with ClingerProofs. *)
From Coq Require Import ZArith Reals Lia SpecFloat ZifyBool ZifyNat ZifyN.
From Flocq Require Import Core BinarySingleNaN.
Require Import Base Value Float PrintOptions ParseOptions Utf8 Reader Scan Num NumberOps Parser.
Require Import ReaderProofs TokenProofs NumTokenProofs DecimalProofs ClingerProofs.

Local Open Scope N_scope.

Definition written_exp (ex : option (N * option bool * bytes)) : Z :=
  match ex with
  | None => 0
  | Some (_, sg, es) => if sign_pos sg then Z.of_N (dfold 0 es) else (- Z.of_N (dfold 0 es))%Z
  end.
Definition lit_exp_exact (fs : bytes) (ex : option (N * option bool * bytes)) : Z :=
  (written_exp ex - Z.of_nat (length fs))%Z.

Lemma lit_exp_is_exact fs ex : (Z.abs (lit_exp_exact fs ex) <= 22)%Z -> lit_exp fs ex = lit_exp_exact fs ex.
Proof.
  unfold lit_exp, lit_exp_exact, exp_value, written_exp, sat_i32, i32_MIN, i32_MAX.
  destruct ex as [[[ec sg] es]|]; [|lia].
  destruct (sign_pos sg); intros H;
    repeat match goal with |- context [if ?c then _ else _] => destruct c eqn:? end; lia.
Qed.

Section FloatLit.
  Variable alpha : N -> bool.
  Variable std_parse : N -> Z -> f64.
  Local Notation ro := default_ro.
  Local Notation parse_token := (parse_token ro alpha true std_parse).
  Local Notation bfloat := (binary_float 53 1024).
  Local Notation rnd64 := (round radix2 (SpecFloat.fexp 53 1024) ZnearestE).

  Lemma num_token_decimal_fast fuel r pos d ip fs ex rest :
    all_digits (d :: ip) -> all_digits fs -> is_float_lit fs ex -> exp_ok ex ->
    (Z.of_N (lit_sig (d :: ip) fs) < 2 ^ 53)%Z -> (Z.abs (lit_exp_exact fs ex) <= 22)%Z ->
    (S (length (lit_text (d :: ip) fs ex)) < fuel)%nat -> delim_ok rest ->
    at_bytes r (lit_text (d :: ip) fs ex ++ rest) ->
    exists (b : bfloat) r',
      parse_num_token true std_parse fuel 10 pos r = (Ok (Float (if pos then B2SF b else f64_neg (B2SF b))), r') /\
      at_bytes r' rest /\ rk r' = rk r /\ is_finite b = true /\
      B2R b = rnd64 (dec_value (lit_sig (d :: ip) fs) (lit_exp_exact fs ex)).
  Proof. clear alpha.
    intros Hdi Hdf Hfl Hex Hsig Hexp Hf Hr Ha.
    destruct (num_literal_decimal true std_parse fuel r pos d ip fs ex rest Hdi Hdf Hfl Hex
                ltac:(unfold u64_MAX; lia) Hf Hr Ha) as (r1 & E1 & Ha1 & Hk1).
    rewrite (lit_exp_is_exact fs ex Hexp) in E1.
    destruct (from_parts_fast std_parse pos (lit_sig (d :: ip) fs) (lit_exp_exact fs ex) r1 Hsig Hexp) as (b & Eb & Hfin & Hv).
    rewrite (bind_ok _ _ _ _ _ Eb) in E1.
    destruct (num_token_of_literal true std_parse fuel 10 pos r _ r1 rest E1 Ha1 Hr) as (r2 & E2 & Ha2 & Hk2).
    exists b, r2. repeat split; auto; congruence.
  Qed.

  (* digits [. digits] [e [sign] digits] *)
  Theorem tok_decimal_fast fuel r d ip fs ex rest :
    all_digits (d :: ip) -> all_digits fs -> is_float_lit fs ex -> exp_ok ex ->
    (Z.of_N (lit_sig (d :: ip) fs) < 2 ^ 53)%Z -> (Z.abs (lit_exp_exact fs ex) <= 22)%Z ->
    (S (length (lit_text (d :: ip) fs ex)) < fuel)%nat -> delim_ok rest ->
    at_bytes r (lit_text (d :: ip) fs ex ++ rest) ->
    exists (b : bfloat) r',
      parse_token fuel d r = (Ok (TNumber (Float (B2SF b))), r') /\ at_bytes r' rest /\ rk r' = rk r /\
      is_finite b = true /\ B2R b = rnd64 (dec_value (lit_sig (d :: ip) fs) (lit_exp_exact fs ex)).
  Proof.
    intros Hdi Hdf Hfl Hex Hsig Hexp Hf Hr Ha. pose proof (Forall_inv Hdi) as Hdig. cbv beta in Hdig.
    destruct (num_token_decimal_fast fuel r true d ip fs ex rest Hdi Hdf Hfl Hex Hsig Hexp Hf Hr Ha)
      as (b & r1 & E1 & Ha1 & Hk1 & Hfin & Hv).
    exists b, r1. rewrite (token_digit alpha true std_parse fuel d Hdig), (bind_ok _ _ _ _ _ E1). unfold ret. auto.
  Qed.

  (* sign digits [. digits] [e [sign] digits] *)
  Theorem tok_signed_decimal_fast fuel r sg d ip fs ex rest : sg = 43 \/ sg = 45 ->
    all_digits (d :: ip) -> all_digits fs -> is_float_lit fs ex -> exp_ok ex ->
    (Z.of_N (lit_sig (d :: ip) fs) < 2 ^ 53)%Z -> (Z.abs (lit_exp_exact fs ex) <= 22)%Z ->
    (S (S (length (lit_text (d :: ip) fs ex))) < fuel)%nat -> delim_ok rest ->
    at_bytes r (sg :: lit_text (d :: ip) fs ex ++ rest) -> peeked r ->
    exists (b : bfloat) r',
      parse_token fuel sg r = (Ok (TNumber (Float (if sg =? 43 then B2SF b else f64_neg (B2SF b)))), r') /\
      at_bytes r' rest /\ rk r' = rk r /\
      is_finite b = true /\ B2R b = rnd64 (dec_value (lit_sig (d :: ip) fs) (lit_exp_exact fs ex)).
  Proof.
    intros Hsg Hdi Hdf Hfl Hex Hsig Hexp Hf Hr Ha Hp. pose proof (Forall_inv Hdi) as Hdig. cbv beta in Hdig.
    rewrite (token_sign alpha true std_parse fuel sg Hsg). unfold sign_arm.
    pose proof Ha as Ha'. unfold lit_text in Ha'. cbn [app] in Ha'.
    step. step. rewrite (digit_not_symbolish d Hdig).
    assert (Ha2 : at_bytes r1 (lit_text (d :: ip) fs ex ++ rest)) by (unfold lit_text; cbn [app]; exact Ha1).
    destruct (num_token_decimal_fast fuel r1 (sg =? 43) d ip fs ex rest Hdi Hdf Hfl Hex Hsig Hexp ltac:(lia) Hr Ha2)
      as (b & r2 & E2 & Ha3 & Hk3 & Hfin & Hv).
    exists b, r2. rewrite (bind_ok _ _ _ _ _ E2). unfold ret. repeat split; auto; congruence.
  Qed.
End FloatLit.
