(* The one loop of the model whose bound is a fact about binary64 arithmetic:
   f64_from_parts (feature fast-float-parsing) divides by 1e308 until the
   decimal exponent fits the POW10 table or the value has become zero. A
   significand is at most 2^64 - 1, so the second division already yields zero:
   at most three iterations, whatever the exponent. (The Rust loop has no fuel;
   this is its termination argument.) *)
From Coq Require Import ZArith Reals Lia Lra SpecFloat.
From Flocq Require Import Core BinarySingleNaN.
Require Import Base Value Float PrintOptions ParseOptions Reader Scan Num Parser ClingerProofs DepthProofs FuelProofs.

Local Open Scope Z_scope.
Local Existing Instance prec53_gt_0.
Local Existing Instance prec53_lt_emax.
Local Notation bfloat := (binary_float p53 e1024).
Local Notation fexp64 := (SpecFloat.fexp p53 e1024).
Local Notation rnd64 := (round radix2 fexp64 ZnearestE).

Definition P308 : bfloat := bnorm (10 ^ 308).

Local Existing Instance valid64.

(* the largest double *)
Definition maxf : R := F2R (Defs.Float radix2 (2 ^ 53 - 1) 971).
Lemma maxf_fmt : generic_format radix2 fexp64 maxf.
Proof. apply format_small; [vm_compute; reflexivity|lia]. Qed.
Lemma maxf_lt : (maxf < bpow radix2 e1024)%R.
Proof.
  unfold maxf, F2R. simpl Fnum. simpl Fexp. change e1024 with (53 + 971). rewrite bpow_plus.
  apply Rmult_lt_compat_r; [apply bpow_gt_0|]. change (bpow radix2 53) with (IZR (2 ^ 53)). apply IZR_lt. lia.
Qed.

Lemma bnorm_between z (lo hi : R) : generic_format radix2 fexp64 lo -> generic_format radix2 fexp64 hi ->
  (0 <= lo)%R -> (hi < bpow radix2 e1024)%R -> (lo <= IZR z <= hi)%R ->
  is_finite (bnorm z) = true /\ (lo <= B2R (bnorm z) <= hi)%R.
Proof.
  intros Flo Fhi H0 Hlt [Hlo Hhi]. unfold bnorm.
  pose proof (binary_normalize_correct p53 e1024 prec53_gt_0 prec53_lt_emax mode_NE z 0 false) as H. cbv zeta in H.
  change (round_mode mode_NE) with ZnearestE in H.
  replace (F2R (Defs.Float radix2 z 0)) with (IZR z) in H by (unfold F2R; simpl; ring).
  assert (Hrlo : (lo <= rnd64 (IZR z))%R) by (apply round_ge_generic; [exact valid64|apply valid_rnd_N|exact Flo|exact Hlo]).
  assert (Hrhi : (rnd64 (IZR z) <= hi)%R) by (apply round_le_generic; [exact valid64|apply valid_rnd_N|exact Fhi|exact Hhi]).
  rewrite Rlt_bool_true in H by (rewrite Rabs_pos_eq; lra).
  destruct H as (H1 & H2 & _). rewrite H1. auto.
Qed.

Lemma ten308_bounds : (bpow radix2 1023 <= IZR (10 ^ 308) <= maxf)%R.
Proof.
  unfold maxf, F2R. simpl Fnum. simpl Fexp. change (bpow radix2 971) with (IZR (2 ^ 971)). rewrite <- mult_IZR.
  change (bpow radix2 1023) with (IZR (2 ^ 1023)). split; apply IZR_le; vm_compute; discriminate.
Qed.

Lemma P308_big : (bpow radix2 1023 <= B2R P308)%R /\ is_finite P308 = true.
Proof.
  destruct (bnorm_between (10 ^ 308) (bpow radix2 1023) maxf) as [Hf [Hlo _]];
    [apply fmt_bpow; lia|exact maxf_fmt|apply bpow_ge_0|exact maxf_lt|exact ten308_bounds|split; assumption].
Qed.

Lemma sig_bounds (sig : N) : (sig <= u64_MAX)%N ->
  (0 <= B2R (bnorm (Z.of_N sig)) <= bpow radix2 64)%R /\ is_finite (bnorm (Z.of_N sig)) = true.
Proof.
  intros Hs. destruct (bnorm_between (Z.of_N sig) 0 (bpow radix2 64)) as [Hf Hb];
    [apply generic_format_0|apply fmt_bpow; lia|lra|apply bpow_lt; reflexivity| |split; assumption].
  change (bpow radix2 64) with (IZR (2 ^ 64)). unfold u64_MAX in Hs. split; apply IZR_le; lia.
Qed.

Lemma div_P308 (x : bfloat) k : is_finite x = true -> (0 <= B2R x <= bpow radix2 k)%R -> k < 2000 ->
  is_finite (Bdiv mode_NE x P308) = true /\
  (0 <= B2R (Bdiv mode_NE x P308) <= rnd64 (bpow radix2 (k - 1023)))%R.
Proof.
  intros Hf [Hx0 Hxk] Hk. destruct P308_big as [HP HPf].
  assert (HPpos : (0 < B2R P308)%R) by (apply Rlt_le_trans with (bpow radix2 1023); [apply bpow_gt_0|exact HP]).
  pose proof (Bdiv_correct p53 e1024 prec53_gt_0 prec53_lt_emax mode_NE x P308 ltac:(lra)) as H.
  change (round_mode mode_NE) with ZnearestE in H.
  assert (Hq0 : (0 <= B2R x / B2R P308)%R) by (apply Rmult_le_pos; [exact Hx0|apply Rlt_le, Rinv_0_lt_compat; exact HPpos]).
  assert (Hqk : (B2R x / B2R P308 <= bpow radix2 (k - 1023))%R).
  { unfold Zminus. rewrite bpow_plus, bpow_opp. unfold Rdiv. apply Rmult_le_compat; try lra.
    - apply Rlt_le, Rinv_0_lt_compat; exact HPpos.
    - apply Rinv_le; [apply bpow_gt_0|exact HP]. }
  assert (Hr0 : (0 <= rnd64 (B2R x / B2R P308))%R).
  { rewrite <- (round_0 radix2 fexp64 ZnearestE). apply round_le; [exact valid64|apply valid_rnd_N|exact Hq0]. }
  assert (Hrk : (rnd64 (B2R x / B2R P308) <= rnd64 (bpow radix2 (k - 1023)))%R).
  { apply round_le; [exact valid64|apply valid_rnd_N|exact Hqk]. }
  assert (Hrk' : (rnd64 (bpow radix2 (k - 1023)) <= bpow radix2 1000)%R).
  { apply round_le_generic; [exact valid64|apply valid_rnd_N|apply fmt_bpow; lia|apply bpow_le; lia]. }
  rewrite Rlt_bool_true in H.
  - destruct H as (H1 & H2 & _). rewrite H1, H2. auto.
  - rewrite Rabs_pos_eq by exact Hr0. apply Rle_lt_trans with (bpow radix2 1000); [lra|apply bpow_lt; reflexivity].
Qed.

Lemma round_tiny k : k < -1075 -> rnd64 (bpow radix2 k) = 0%R.
Proof.
  intros Hk. apply (round_N_small radix2 fexp64 (fun x => negb (Z.even x)) (bpow radix2 k) (k + 1)).
  - rewrite Rabs_pos_eq by apply bpow_ge_0. split; [apply bpow_le; lia|apply bpow_lt; lia].
  - rewrite fexp64_FLT. unfold FLT_exp. lia.
Qed.

Lemma finite_zero (x : bfloat) : is_finite x = true -> B2R x = 0%R -> exists s, B2SF x = S754_zero s.
Proof.
  destruct x as [s|s| |s m e Hb]; try discriminate; intros _ H.
  - exists s. reflexivity.
  - exfalso. simpl in H. unfold F2R in H. simpl in H.
    assert (Hm : (IZR (cond_Zopp s (Zpos m)) <> 0)%R) by (apply IZR_neq; destruct s; simpl; lia).
    pose proof (bpow_gt_0 radix2 e). apply Rmult_integral in H. destruct H; [contradiction|lra].
Qed.

(* with P308 left folded, no later conversion evaluates the rounding of 10^308 *)
Lemma pow10_308 : pow10_f64 308 = B2SF P308.
Proof. exact (f64_of_Z_B (10 ^ 308)). Qed.

Lemma div_P308_B (x : bfloat) : f64_div (B2SF x) (pow10_f64 308) = B2SF (Bdiv mode_NE x P308).
Proof. rewrite pow10_308. exact (SFdiv_B x P308). Qed.

Theorem two_divisions_zero (sig : N) : (sig <= u64_MAX)%N ->
  f64_eqb (f64_div (f64_div (f64_of_N sig) (pow10_f64 308)) (pow10_f64 308)) (S754_zero false) = true.
Proof.
  intros Hs. unfold f64_of_N. rewrite f64_of_Z_B, !div_P308_B.
  destruct (sig_bounds sig Hs) as [Hb Hf].
  destruct (div_P308 _ 64 Hf Hb ltac:(lia)) as [Hf1 [H10 H1k]].
  assert (H1k' : (B2R (Bdiv mode_NE (bnorm (Z.of_N sig)) P308) <= bpow radix2 (-959))%R).
  { eapply Rle_trans; [exact H1k|]. apply round_le_generic; [exact valid64|apply valid_rnd_N|apply fmt_bpow; lia|apply Rle_refl]. }
  destruct (div_P308 _ (-959) Hf1 (conj H10 H1k') ltac:(lia)) as [Hf2 [H20 H2k]].
  rewrite round_tiny in H2k by lia.
  destruct (finite_zero _ Hf2 ltac:(lra)) as [s Es]. rewrite Es. destruct s; reflexivity.
Qed.

Lemma fast_loop_no_fuel (f : f64) (e : Z) n r : (3 <= n)%nat ->
  f64_eqb (f64_div (f64_div f (pow10_f64 308)) (pow10_f64 308)) (S754_zero false) = true ->
  fst (f64_from_parts_fast_loop n f e r) <> Err EFuel.
Proof.
  intros Hn Hz. destruct n as [|[|[|n]]]; try lia. cbn [f64_from_parts_fast_loop].
  repeat match goal with
         | |- fst ((if ?c then _ else _) _) <> _ => destruct c
         | |- fst (ret _ _) <> _ => discriminate
         | |- fst (error _ _) <> _ => unfold error; destruct (r_position r); discriminate
         end.
  discriminate Hz.
Qed.

Lemma fast_loop_reader k : forall f e r, snd (f64_from_parts_fast_loop k f e r) = r.
Proof.
  induction k as [|k IH]; intros f e r; cbn [f64_from_parts_fast_loop]; [reflexivity|].
  repeat match goal with
         | |- snd ((if ?c then _ else _) _) = _ => destruct c
         | |- snd (ret _ _) = _ => reflexivity
         | |- snd (error _ _) = _ => unfold error; destruct (r_position r); reflexivity
         end.
  apply IH.
Qed.

Theorem f64_from_parts_ok fast std_parse pos sig e n : (sig <= u64_MAX)%N ->
  ok n (f64_from_parts fast std_parse pos sig e).
Proof.
  intros Hs r _. unfold okc, f64_from_parts. destruct fast.
  - unfold bind. pose proof (fast_loop_no_fuel (f64_of_N sig) e 8 r ltac:(lia) (two_divisions_zero sig Hs)) as Hf.
    pose proof (fast_loop_reader 8 (f64_of_N sig) e r) as Hm.
    destruct (f64_from_parts_fast_loop 8 (f64_of_N sig) e r) as [[x|err] r1]; cbn [fst snd] in *.
    + subst r1. unfold ret. cbn [fst snd]. split; [discriminate|lia].
    + subst r1. split; [intros E; apply Hf; inversion E; reflexivity|lia].
  - destruct (is_infinite_f64 _); [unfold error; destruct (r_position r)|unfold ret]; cbn [fst snd]; split; try discriminate; lia.
Qed.

(* totality: with fuel_for, no outcome of the model is its own fuel error *)
Local Close Scope Z_scope.
Section Total.
  Variable ro : parse_options.
  Variable alpha : N -> bool.
  Variable fast : bool.
  Variable std_parse : N -> Z -> f64.
  Let Hfp := f64_from_parts_ok fast std_parse.

  Theorem total_from_trait k inp :
    from_trait ro alpha fast std_parse k inp <> PErr (XErr EFuel) /\
    datum_from_trait ro alpha fast std_parse k inp <> PErr (XErr EFuel).
  Proof. split; [apply (from_trait_not_fuel ro alpha fast std_parse Hfp)|apply (datum_from_trait_not_fuel ro alpha fast std_parse Hfp)]. Qed.

  Theorem total_history k inp cs :
    Forall (fun r => ~ call_fuel r) (run_history ro alpha fast std_parse (fuel_for inp) cs (init_state k inp)).
  Proof.
    apply (history_fuel ro alpha fast std_parse Hfp (fuel_for inp) (length inp) cs (init_state k inp));
      [unfold fuel_for; lia|apply init_rem].
  Qed.

  Theorem total_iterate k inp n :
    Forall (fun r => r <> PErr (XErr EFuel)) (iterate_values ro alpha fast std_parse (fuel_for inp) n (init_state k inp)) /\
    Forall (fun r => r <> PErr (XErr EFuel)) (iterate_datums ro alpha fast std_parse (fuel_for inp) n (init_state k inp)) /\
    (length (filter is_okb (iterate_values ro alpha fast std_parse (fuel_for inp) n (init_state k inp))) <= length inp)%nat /\
    (length (filter is_okb (iterate_datums ro alpha fast std_parse (fuel_for inp) n (init_state k inp))) <= length inp)%nat.
  Proof.
    assert (Hf : (2 * length inp + 3 <= fuel_for inp)%nat) by (unfold fuel_for; lia). pose proof (init_rem k inp) as Hr.
    split; [apply (iterate_values_fuel ro alpha fast std_parse Hfp _ (length inp)); assumption|].
    split; [apply (iterate_datums_fuel ro alpha fast std_parse Hfp _ (length inp)); assumption|].
    split.
    - eapply Nat.le_trans; [apply (iterate_values_count ro alpha fast std_parse Hfp _ (length inp)); assumption|exact Hr].
    - eapply Nat.le_trans; [apply (iterate_datums_count ro alpha fast std_parse Hfp _ (length inp)); assumption|exact Hr].
  Qed.
End Total.
