Require Import Base Value Float NumberOps.
From Coq Require Import SpecFloat ZifyBool.

Definition count_true (l : list bool) : nat := length (filter (fun b => b) l).

Lemma one_kind v : count_true (kind_predicates v) = 1%nat.
Proof. destruct v; reflexivity. Qed.

Lemma is_as_all v :
  is_string v = isSome (as_str v) /\ is_symbol v = isSome (as_symbol v) /\
  is_keyword v = isSome (as_keyword v) /\ is_bytes v = isSome (as_bytes v) /\
  is_number v = isSome (as_number v) /\ is_boolean v = isSome (as_bool v) /\
  is_char v = isSome (as_char v) /\ is_nil v = isSome (as_nil v) /\
  is_null_v v = isSome (as_null v) /\ is_cons_v v = isSome (as_cons v) /\
  is_vector v = isSome (as_slice v) /\
  is_i64 v = isSome (as_i64 v) /\ is_u64 v = isSome (as_u64 v).
Proof.
  repeat split; try reflexivity; destruct v; try reflexivity;
    destruct n; cbn; try reflexivity; destruct (Z.of_N n <=? i64_max)%Z; reflexivity.
Qed.

Lemma is_f64_spec v : is_f64 v = true <-> exists f, v = Number (Float f).
Proof.
  split.
  - destruct v; try discriminate. destruct n; try discriminate. intros _; now exists f.
  - intros [f ->]; reflexivity.
Qed.
Lemma as_f64_some v : isSome (as_f64 v) = is_number v.
Proof. destruct v; try reflexivity. destruct n; reflexivity. Qed.

Lemma as_name_spec v :
  isSome (as_name v) = match kind_of v with KString | KSymbol | KKeyword => true | _ => false end.
Proof. destruct v; reflexivity. Qed.

Definition int_value (v : value) : option Z :=
  match v with
  | Number (PosInt n) => Some (Z.of_N n)
  | Number (NegInt i) => Some i
  | _ => None
  end.

Lemma from_signed bits i : signed_in_range bits i = true -> (bits <= 64)%N -> (1 <= bits)%N ->
  let v := value_from_prim (PSigned bits i) in
  as_i64 v = Some i /\
  as_u64 v = (if (0 <=? i)%Z then Some (Z.to_N i) else None) /\
  is_f64 v = false /\
  as_f64 v = Some (f64_of_Z i) /\
  int_value v = Some i.
Proof.
  unfold signed_in_range. intros H Hb Hb1.
  assert (2 ^ (Z.of_N bits - 1) <= 2 ^ 63)%Z by (apply Z.pow_le_mono_r; lia).
  change (2 ^ 63)%Z with 9223372036854775808%Z in H0.
  cbn [value_from_prim]. unfold num_from_signed.
  destruct (0 <=? i)%Z eqn:E.
  - cbn. unfold i64_max. rewrite Z2N.id by lia.
    destruct (i <=? 9223372036854775807)%Z eqn:E2; [|lia].
    repeat split. unfold f64_of_N. now rewrite Z2N.id by lia.
  - cbn. repeat split.
Qed.

Lemma from_unsigned bits u : unsigned_in_range bits u = true -> (bits <= 64)%N ->
  let v := value_from_prim (PUnsigned bits u) in
  as_u64 v = Some u /\
  as_i64 v = (if (Z.of_N u <=? i64_max)%Z then Some (Z.of_N u) else None) /\
  is_f64 v = false /\
  as_f64 v = Some (f64_of_N u) /\
  int_value v = Some (Z.of_N u).
Proof. intros _ _. cbn. repeat split. Qed.

Lemma from_float f :
  let v := value_from_prim (PF64 f) in
  as_f64 v = Some f /\ as_i64 v = None /\ as_u64 v = None /\ is_f64 v = true /\
  is_i64 v = false /\ is_u64 v = false.
Proof. cbn. repeat split. Qed.

Lemma from_f32 x :
  let v := value_from_prim (PF32 x) in
  as_f64 v = Some (f64_of_f32 x) /\ as_i64 v = None /\ as_u64 v = None /\ is_f64 v = true.
Proof. cbn. repeat split. Qed.

Lemma from_f64_checked f :
  num_from_f64 f = if is_finite_f64 f then Some (Float f) else None.
Proof. reflexivity. Qed.

Lemma payloads :
  (forall s, as_str (String s) = Some s) /\ (forall c, as_char (Char c) = Some c) /\
  (forall b, as_bool (Bool b) = Some b) /\ (forall b, as_bytes (Bytes b) = Some b) /\
  (forall a d, as_pair (Cons a d) = Some (a, d)) /\ (forall l, as_slice (Vector l) = Some l) /\
  (forall s, as_symbol (Symbol s) = Some s) /\ (forall s, as_keyword (Keyword s) = Some s).
Proof. repeat split. Qed.

Lemma eq_signed_spec v bits i : signed_in_range bits i = true -> (1 <= bits <= 64)%N ->
  (forall z, v = Number (NegInt z) -> (i64_min <= z < 0)%Z) ->
  (forall n, v = Number (PosInt n) -> (n <= u64_max)%N) ->
  value_eq_prim v (PSigned bits i) = true <-> int_value v = Some i.
Proof.
  unfold signed_in_range; intros H Hb Hneg Hpos.
  assert (2 ^ (Z.of_N bits - 1) <= 2 ^ 63)%Z by (apply Z.pow_le_mono_r; lia).
  change (2 ^ 63)%Z with 9223372036854775808%Z in H0.
  cbn [value_eq_prim]. unfold eq_i64, as_i64.
  destruct v; cbn; try (split; [discriminate|discriminate]).
  destruct n; cbn.
  - unfold i64_max. destruct (Z.of_N n <=? 9223372036854775807)%Z eqn:E.
    + split; [intros; f_equal; lia|intros [= ->]; lia].
    + split; [discriminate|intros [= <-]; lia].
  - split; [intros; f_equal; lia|intros [= ->]; lia].
  - split; discriminate.
Qed.

Lemma eq_unsigned_spec v bits u : unsigned_in_range bits u = true -> (bits <= 64)%N ->
  (forall z, v = Number (NegInt z) -> (z < 0)%Z) ->
  value_eq_prim v (PUnsigned bits u) = true <-> int_value v = Some (Z.of_N u).
Proof.
  intros _ _ Hneg. cbn [value_eq_prim]. unfold eq_u64, as_u64.
  destruct v; cbn; try (split; discriminate).
  destruct n; cbn.
  - split; [intros; f_equal; lia|intros [= H]; lia].
  - specialize (Hneg z eq_refl). split; [discriminate|intros [= ->]; lia].
  - split; discriminate.
Qed.

Lemma eq_symmetric v p : value_eq_prim v p = prim_eq_value p v.
Proof. reflexivity. Qed.

Lemma eq_via_accessor v p :
  value_eq_prim v p =
  match p with
  | PSigned _ i => match as_i64 v with Some x => (x =? i)%Z | None => false end
  | PUnsigned _ u => match as_u64 v with Some x => x =? u | None => false end
  | PF32 x => match as_f64 v with Some y => f64_eqb y (f64_of_f32 x) | None => false end
  | PF64 f => match as_f64 v with Some y => f64_eqb y f | None => false end
  | PBool b => match as_bool v with Some x => Bool.eqb x b | None => false end
  | PStr s => match as_str v with Some x => beq_bytes x s | None => false end
  end.
Proof. destruct p; reflexivity. Qed.
