(* Token-level reading lemmas for Options::elisp(), all source kinds. *)
From Coq Require Import SpecFloat ZifyBool ZifyNat ZifyN.
Require Import Base Value Float PrintOptions Printer ParseOptions Utf8 Reader Scan Num NumberOps Parser.
Require Import ReaderProofs ScanProofs TokenProofs NumTokenProofs Utf8Proofs Utf8PrintProofs.
Ltac Zify.zify_post_hook ::= Z.div_mod_to_equations.

Lemma digits_no_terminator ds : all_digits ds -> no_terminator ds.
Proof. apply Forall_impl. intros c H. unfold is_digit, in_range in H. unfold is_symbol_terminator, memb. cbn [existsb]. lia. Qed.

Section ElispTokens.
  Variable alpha : N -> bool.
  Variable fast : bool.
  Variable std_parse : N -> Z -> f64.
  Local Notation ro := elisp_ro.
  Local Notation parse_token := (parse_token ro alpha fast std_parse).

  Definition esym_token (name : bytes) : token :=
    if beq_bytes name (s2b "nil") then TNull else TSymbol name.
  Lemma symbol_token_elisp name : symbol_token ro name = esym_token name.
  Proof.
    unfold symbol_token, esym_token. cbn [ro_kw_postfix ro_nil ro_t elisp_ro andb].
    destruct (beq_bytes name (s2b "nil")); reflexivity.
  Qed.

  Lemma etok_listopen fuel r rest : at_bytes r (40 :: rest) -> peeked r ->
    exists r', parse_token fuel 40 r = (Ok (TListOpen 41), r') /\ at_bytes r' rest /\ rk r' = rk r.
  Proof. exact (tok_listopen_any ro alpha fast std_parse fuel r rest). Qed.

  Lemma etok_vecopen fuel r rest : at_bytes r (91 :: rest) -> peeked r ->
    exists r', parse_token fuel 91 r = (Ok (TVecOpen 93), r') /\ at_bytes r' rest /\ rk r' = rk r.
  Proof. intros Ha Hp. change (parse_token fuel 91) with (eat_char ;;; ret (TVecOpen 93)). step. exists r0. unfold ret. auto. Qed.

  Lemma etok_keyword fuel r name rest : (length name < fuel)%nat ->
    no_terminator name -> at_terminator rest -> symbol_ok name ->
    at_bytes r (58 :: name ++ rest) -> peeked r ->
    exists r', parse_token fuel 58 r = (Ok (TKeyword name), r') /\ at_bytes r' rest /\ rk r' = rk r.
  Proof.
    intros Hf Hn Ht Hok Ha Hp.
    change (parse_token fuel 58) with (eat_char ;;; s <- parse_symbol fuel ;; ret (TKeyword s)).
    step. unfold parse_symbol.
    destruct (parse_symbol_spec name fuel [] rest r0 Hf Hn Ht Ha0 Hok) as (r2 & E & Ha2 & Hk2 & _).
    rewrite (bind_ok _ _ _ _ _ E). exists r2. unfold ret. cbn [app]. repeat split; auto; congruence.
  Qed.

  (* symbols: an ASCII letter or one of !$%&*./<=>@^_~ first ('?' and ':' have other meanings here) *)
  Definition eext_initial : bytes := s2b "!$%&*./<=>@^_~".
  Lemma etoken_ext fuel c : In c eext_initial -> parse_token fuel c = sym_arm ro fuel.
  Proof.
    intros H. unfold eext_initial in H. cbn in H.
    repeat (destruct H as [<-|H]; [reflexivity|]). contradiction.
  Qed.

  Lemma etok_symbol_direct fuel r c s' rest :
    (is_ascii_alpha c = true \/ In c eext_initial) ->
    (length (c :: s') < fuel)%nat -> no_terminator (c :: s') -> at_terminator rest -> symbol_ok (c :: s') ->
    at_bytes r ((c :: s') ++ rest) ->
    exists r', parse_token fuel c r = (Ok (esym_token (c :: s')), r') /\ at_bytes r' rest /\ rk r' = rk r.
  Proof.
    intros Hc. rewrite <- symbol_token_elisp. apply (tok_sym_arm ro alpha fast std_parse fuel r c s' rest).
    destruct Hc as [Hc|Hc]; [exact (token_alpha ro alpha fast std_parse fuel c Hc)|exact (etoken_ext fuel c Hc)].
  Qed.

  Lemma etok_symbol_sign fuel r c s' rest : c = 43 \/ c = 45 ->
    (match s' with [] => True | c2 :: _ => sign_next_ok c2 = true end) ->
    (length (c :: s') < fuel)%nat -> no_terminator (c :: s') -> delim_ok rest -> symbol_ok (c :: s') ->
    at_bytes r ((c :: s') ++ rest) -> peeked r ->
    exists r', parse_token fuel c r = (Ok (TSymbol (c :: s')), r') /\ at_bytes r' rest /\ rk r' = rk r.
  Proof.
    intros Hc. replace (TSymbol (c :: s')) with (symbol_token ro (c :: s'))
      by (rewrite symbol_token_elisp; destruct Hc as [->| ->]; reflexivity).
    exact (tok_symbol_sign_any ro alpha fast std_parse fuel r c s' rest Hc).
  Qed.

  (* numbers: a digit-initial token is scanned as a symbol first *)
  Lemma number_of_symbol_digits fuel d ds : all_digits (d :: ds) -> dfold 0 (d :: ds) <= u64_MAX ->
    (length (d :: ds) < fuel)%nat ->
    number_of_symbol fast std_parse fuel (d :: ds) = Some (PosInt (dfold 0 (d :: ds))).
  Proof. clear alpha.
    intros Hd Hmax Hf. unfold number_of_symbol. cbv zeta.
    set (s0 := mk_reader SrcSlice (bytes_events (d :: ds))).
    assert (Ha : at_bytes s0 ((d :: ds) ++ [])) by (rewrite app_nil_r; reflexivity).
    pose proof (Forall_inv Hd) as Hdig. cbv beta in Hdig.
    unfold parse_num_literal. cbn [app] in Ha.
    destruct (m_next_cons s0 d (ds ++ []) Ha) as (r0 & E0 & Ha0 & Hk0). rewrite (bind_ok _ _ _ _ _ E0).
    rewrite (digit_val_digit true d Hdig).
    assert (E10 : (10 <=? d - 48) = false) by (unfold is_digit, in_range in Hdig; lia). rewrite E10.
    inversion Hd as [|? ? _ Hd']; subst.
    change (dfold 0 (d :: ds)) with (dfold (d - 48) ds) in *.
    destruct (num_loop_digits fast std_parse ds fuel r0 true (d - 48) [] ltac:(cbn in Hf; lia) Hd' I Hmax Ha0) as (r1 & E1 & Ha1 & Hk1).
    rewrite E1. unfold int_result.
    destruct (m_peek_nil r1 Ha1) as (r2 & E2 & _). unfold peek in E2. rewrite E2. reflexivity.
  Qed.

  Lemma etoken_digit fuel c : is_digit c = true ->
    parse_token fuel c = (symbol <- parse_symbol fuel ;;
                          match number_of_symbol fast std_parse fuel symbol with
                          | Some n => ret (TNumber n)
                          | None => ret (symbol_token ro symbol)
                          end).
  Proof.
    intros H. unfold Parser.parse_token. pose proof H as H'. unfold is_digit, in_range in H'.
    replace (c =? 35) with false by lia. replace ((c =? 45) || (c =? 43)) with false by lia.
    rewrite H. reflexivity.
  Qed.

  Theorem etok_posint fuel r n rest : n <= u64_MAX -> (length (dec_of_N n) < fuel)%nat -> delim_ok rest ->
    at_bytes r (dec_of_N n ++ rest) ->
    exists c r', hd_error (dec_of_N n ++ rest) = Some c /\
      parse_token fuel c r = (Ok (TNumber (PosInt n)), r') /\ at_bytes r' rest /\ rk r' = rk r.
  Proof.
    intros Hn Hf Hr Ha. destruct (dec_of_N_spec n) as (ds & E & Hne & Hd & Hv & _). rewrite E in *.
    destruct ds as [|d ds]; [contradiction|]. exists d.
    pose proof (Forall_inv Hd) as Hdig. cbv beta in Hdig.
    assert (Hok : symbol_ok ([] ++ d :: ds)).
    { split; [|apply ascii_valid; apply digits_ascii; exact Hd].
      cbn [app beq_bytes]. unfold is_digit, in_range in Hdig. replace (d =? 46) with false by lia. reflexivity. }
    destruct (parse_symbol_spec (d :: ds) fuel [] rest r Hf (digits_no_terminator _ Hd) Hr Ha Hok)
      as (r1 & E1 & Ha1 & Hk1 & _).
    exists r1. split; [reflexivity|]. rewrite (etoken_digit fuel d Hdig). unfold parse_symbol. rewrite (bind_ok _ _ _ _ _ E1).
    cbn [app]. rewrite (number_of_symbol_digits fuel d ds Hd ltac:(rewrite Hv; exact Hn) Hf), Hv. unfold ret. auto.
  Qed.

  Theorem etok_negint fuel r i rest : (i64_min <= i < 0)%Z -> (S (length (dec_of_N (Z.to_N (- i)))) < fuel)%nat -> delim_ok rest ->
    at_bytes r (dec_of_Z i ++ rest) -> peeked r ->
    exists r', parse_token fuel 45 r = (Ok (TNumber (NegInt i)), r') /\ at_bytes r' rest /\ rk r' = rk r.
  Proof. exact (tok_negint_any ro alpha fast std_parse fuel r i rest). Qed.
End ElispTokens.
