(* Characters, strings and unibyte strings under Options::elisp(). *)
From Coq Require Import SpecFloat ZifyBool ZifyNat ZifyN.
Require Import Base Value Float PrintOptions Printer ParseOptions Utf8 Reader Scan Num NumberOps Parser.
Require Import ReaderProofs TokenProofs CharStrProofs ElispText.
Ltac Zify.zify_post_hook ::= Z.div_mod_to_equations.

Ltac finish_at :=
  match goal with
  | Hx : at_bytes ?rr ?l |- exists r', _ = (Ok _, r') /\ at_bytes r' ?l /\ _ =>
      exists rr; unfold ret; repeat split; auto; congruence
  end.
Ltac exists_at := match goal with Hx : at_bytes ?rr _ |- _ => exists rr end.

Lemma elisp_hex_loop_spec ds : forall fuel r n rest, (length ds < fuel)%nat -> all_lower_hex ds -> delim_ok rest ->
  hfold n ds < cp_limit -> at_bytes r (ds ++ rest) ->
  exists r', elisp_hex_loop fuel n r = (Ok (hfold n ds), r') /\ at_bytes r' rest /\ rk r' = rk r.
Proof.
  induction ds as [|d ds IH]; intros fuel r n rest Hf Hd Hr Hmax Ha;
    (destruct fuel as [|f]; [cbn in Hf; lia|]); cbn [elisp_hex_loop]; cbn [app] in Ha.
  - destruct rest as [|b rest].
    + step. exists r0. unfold ret. cbn [hfold fold_left]. auto.
    + step. assert (Hb : decode_hex_val b = None) by (delim_cases Hr; reflexivity). rewrite Hb.
      exists r0. unfold ret. cbn [hfold fold_left]. auto.
  - inversion Hd as [|? ? Hdig Hd']; subst. destruct (lower_hex_facts d Hdig) as [Hdec _].
    step. rewrite Hdec. step.
    change (hfold n (d :: ds)) with (hfold (n * 16 + hexval d) ds) in *.
    pose proof (hfold_ge ds (n * 16 + hexval d)) as Hge.
    assert (Elim : (cp_limit <=? n) = false) by (unfold cp_limit in *; lia). rewrite Elim.
    destruct (IH f r1 (n * 16 + hexval d) rest ltac:(cbn in Hf; lia) Hd' Hr Hmax Ha1) as (r2 & E & Ha2 & Hk2).
    exists r2. repeat split; auto; congruence.
Qed.

Lemma esc_chars_cases c : memb c ELISP_ESCAPE_CHARS = true ->
  c = 40 \/ c = 41 \/ c = 91 \/ c = 93 \/ c = 92 \/ c = 59 \/ c = 124 \/ c = 39 \/ c = 96 \/ c = 35 \/ c = 46 \/ c = 44.
Proof.
  change ELISP_ESCAPE_CHARS with [40; 41; 91; 93; 92; 59; 124; 39; 96; 35; 46; 44]. unfold memb. cbn [existsb]. lia.
Qed.
Lemma esc_chars_not c : memb c ELISP_ESCAPE_CHARS = false -> memb c [40; 41; 91; 93; 59] = false /\ (c =? 92) = false.
Proof.
  change ELISP_ESCAPE_CHARS with [40; 41; 91; 93; 92; 59; 124; 39; 96; 35; 46; 44]. unfold memb. cbn [existsb]. lia.
Qed.

Lemma parse_elisp_char_spec fuel r c rest : is_scalar c = true -> (length (echar_text c) < fuel)%nat -> delim_ok rest ->
  exists body, echar_text c = 63 :: body /\
    forall r1, at_bytes r1 (body ++ rest) -> rk r1 = rk r ->
    exists r', parse_elisp_char fuel r1 = (Ok c, r') /\ at_bytes r' rest /\ rk r' = rk r.
Proof.
  intros Hs Hf Hr. unfold echar_text in *. destruct ((32 <=? c) && (c <? 127)) eqn:Ep.
  - destruct (memb c ELISP_ESCAPE_CHARS) eqn:Em.
    + exists [92; c]. split; [reflexivity|]. intros r1 Ha Hk1. cbn [app] in Ha. unfold parse_elisp_char.
      step. change (127 <? 92) with false. change (memb 92 [40; 41; 91; 93; 59]) with false. change (92 =? 92) with true. cbv iota.
      unfold decode_elisp_char_escape. step_noe.
      destruct (esc_chars_cases c Em) as [->|[->|[->|[->|[->|[->|[->|[->|[->|[->|[->| ->]]]]]]]]]]];
        eval_cmp; finish_at.
    + destruct (esc_chars_not c Em) as [E1 E2].
      exists [c]. split; [reflexivity|]. intros r1 Ha Hk1. cbn [app] in Ha. unfold parse_elisp_char.
      step. replace (127 <? c) with false by lia. rewrite E1, E2. finish_at.
  - destruct (hex_of_N_spec c) as (ds & E & Hne & Hd & Hv). rewrite E in *.
    exists (92 :: 120 :: ds). split; [reflexivity|]. intros r1 Ha Hk1. cbn [app] in Ha. unfold parse_elisp_char.
    step. change (127 <? 92) with false. change (memb 92 [40; 41; 91; 93; 59]) with false. change (92 =? 92) with true. cbv iota.
    unfold decode_elisp_char_escape. step_noe. eval_cmp. unfold decode_elisp_hex_escape.
    assert (Hlim : hfold 0 ds < cp_limit) by (rewrite Hv; unfold is_scalar, cp_limit in *; lia).
    match goal with Hx : at_bytes ?rr (ds ++ rest) |- _ =>
      destruct (elisp_hex_loop_spec ds fuel rr 0 rest ltac:(cbn in Hf; lia) Hd Hr Hlim Hx) as (r9 & E9 & Ha9 & Hk9) end.
    rewrite (bind_ok _ _ _ _ _ E9). unfold open_ended_char. rewrite Hv, Hs. exists r9. unfold ret. repeat split; auto; congruence.
Qed.

Section ElispChar.
  Variable alpha : N -> bool.
  Variable fast : bool.
  Variable std_parse : N -> Z -> f64.
  Local Notation parse_token := (parse_token elisp_ro alpha fast std_parse).

  Theorem etok_char fuel r c rest : is_scalar c = true -> (length (echar_text c) < fuel)%nat -> delim_ok rest ->
    at_bytes r (echar_text c ++ rest) -> peeked r ->
    exists r', parse_token fuel 63 r = (Ok (TChar c), r') /\ at_bytes r' rest /\ rk r' = rk r.
  Proof.
    intros Hs Hf Hr Ha Hp. destruct (parse_elisp_char_spec fuel r c rest Hs Hf Hr) as (body & Eb & Hbody).
    rewrite Eb in Ha. cbn [app] in Ha.
    change (parse_token fuel 63) with (eat_char ;;; ch <- parse_elisp_char fuel ;; ret (TChar ch)).
    step. destruct (Hbody r0 Ha0 ltac:(congruence)) as (r2 & E2 & Ha2 & Hk2).
    rewrite (bind_ok _ _ _ _ _ E2). exists r2. unfold ret. auto.
  Qed.
End ElispChar.

Definition no_ub (e : elisp_escape) : Prop := e <> EscUnibyte.

Lemma eescape_roundtrip b e : escape_of b = Some e ->
  exists body, eesc_bytes b = 92 :: body /\
    forall fuel r tail, (6 < fuel)%nat -> at_bytes r (body ++ tail) ->
    exists esc r', parse_elisp_escape fuel r = (Ok ([b], esc), r') /\ no_ub esc /\ at_bytes r' tail /\ rk r' = rk r.
Proof.
  intros He. unfold eesc_bytes. rewrite He. destruct (escape_cases b e He) as [Hin|[-> Hb]].
  { cbn [In] in Hin.
    repeat (destruct Hin as [[= <- <-]|Hin];
            [eexists; split; [reflexivity|]; intros fuel r tail Hf Ha; cbn [app] in Ha;
             unfold parse_elisp_escape; step_noe; eval_cmp; eexists _, _; unfold ret, no_ub;
             split; [reflexivity|]; split; [discriminate|auto]|]).
    contradiction. }
  cbn [write_elisp_char_escape flatten wall app].
  destruct (hex_upper_facts (b / 16) ltac:(lia)) as [Hd1 _].
  destruct (hex_upper_facts (b mod 16) ltac:(lia)) as [Hd2 _].
  eexists. split; [cbn; reflexivity|]. intros fuel r tail Hf Ha. cbn [app] in Ha.
  unfold parse_elisp_escape. step_noe. eval_cmp.
  assert (exists r', decode_elisp_uni_escape 4 0 r0 = (Ok b, r') /\ at_bytes r' tail /\ rk r' = rk r0) as (r' & E' & Ha' & Hk').
  { cbn [decode_elisp_uni_escape].
    step_noe. change (decode_hex_val 48) with (Some 0). change (cp_limit <=? 0) with false. cbv iota.
    step_noe. change (decode_hex_val 48) with (Some 0). change (cp_limit <=? 0 * 16 + 0) with false. cbv iota.
    step_noe. rewrite Hd1. replace (cp_limit <=? (0 * 16 + 0) * 16 + 0) with false by reflexivity.
    step_noe. rewrite Hd2. replace (cp_limit <=? ((0 * 16 + 0) * 16 + 0) * 16 + b / 16) with false by (unfold cp_limit; lia).
    exists_at. unfold ret. split; [f_equal; f_equal; lia|]. split; [assumption|congruence]. }
  rewrite (bind_ok _ _ _ _ _ E'). unfold elisp_uni_escape_of. replace (is_scalar b) with true by (unfold is_scalar; lia).
  unfold utf8_encode. replace (b <? 128) with true by lia. exists EscMultibyte, r'. unfold ret, no_ub.
  repeat split; auto; try discriminate; congruence.
Qed.

Definition ebody (s : bytes) : bytes := flat_map eesc_bytes s.

Lemma eescape_none_plain b : escape_of b = None -> eesc_bytes b = [b] /\ (b =? 34) = false /\ (b =? 92) = false.
Proof. intros H. unfold eesc_bytes. rewrite H. split; [reflexivity|]. apply (escape_none_plain b H). Qed.

Lemma note_no_ub fl e : no_ub e -> seen_ub fl = false -> seen_ub (note_escape fl e) = false.
Proof. intros He H. destruct e; cbn [note_escape seen_ub]; auto. exfalso. apply He. reflexivity. Qed.

Lemma elisp_str_io_spec s : forall fuel fl scratch r rest, (length (ebody s) + 8 < fuel)%nat -> seen_ub fl = false ->
  at_bytes r (ebody s ++ 34 :: rest) ->
  exists fl' r', elisp_str_io fuel fl scratch r = elisp_finish fl' (scratch ++ s) r' /\ seen_ub fl' = false /\
                 at_bytes r' rest /\ rk r' = rk r.
Proof.
  induction s as [|b s IH]; intros fuel fl scratch r rest Hf Hub Ha;
    (destruct fuel as [|f]; [lia|]); cbn [elisp_str_io]; cbn [ebody flat_map app] in Ha, Hf.
  - step_noe. change (34 =? 34) with true. cbv iota. exists fl. exists_at. rewrite app_nil_r. auto.
  - fold (ebody s) in *. rewrite app_length in Hf. destruct (escape_of b) as [e|] eqn:Ee.
    + destruct (eescape_roundtrip b e Ee) as (body & Eb & Hbody). rewrite Eb in *. cbn [app length] in Ha, Hf.
      step_noe. change (92 =? 34) with false. change (92 =? 92) with true. cbv iota.
      rewrite <- app_assoc in Ha0.
      destruct (Hbody f r0 (ebody s ++ 34 :: rest) ltac:(lia) Ha0) as (esc & r1 & E1 & Hesc & Ha1 & Hk1).
      rewrite (bind_ok _ _ _ _ _ E1). cbn [fst snd].
      destruct (IH f (note_escape fl esc) (scratch ++ [b]) r1 rest ltac:(lia) (note_no_ub fl esc Hesc Hub) Ha1)
        as (fl' & r2 & E2 & Hub2 & Ha2 & Hk2).
      exists fl', r2. rewrite E2, <- app_assoc. repeat split; auto; congruence.
    + destruct (eescape_none_plain b Ee) as (Eb & E34 & E92). rewrite Eb in *. cbn [app length] in Ha, Hf.
      step_noe. rewrite E34, E92.
      destruct (IH f (if 127 <? b then {| seen_ub := seen_ub fl; seen_mb := seen_mb fl; seen_na := true |} else fl)
                  (scratch ++ [b]) r0 rest ltac:(lia) ltac:(destruct (127 <? b); exact Hub) Ha0)
        as (fl' & r2 & E2 & Hub2 & Ha2 & Hk2).
      exists fl', r2. rewrite E2, <- app_assoc. repeat split; auto; congruence.
Qed.

Definition na_flag (fl : elisp_flags) (run : bytes) : elisp_flags :=
  if existsb (fun b => 127 <? b) run then {| seen_ub := seen_ub fl; seen_mb := seen_mb fl; seen_na := true |} else fl.
Lemma na_flag_ub fl run : seen_ub (na_flag fl run) = seen_ub fl.
Proof. unfold na_flag. destruct (existsb _ run); reflexivity. Qed.

Lemma elisp_slice_step f fl scratch r p t tail : plain_run p -> t = 92 \/ t = 34 -> at_bytes r (p ++ t :: tail) ->
  exists r', elisp_str_slice (S f) fl scratch r =
             (if t =? 34 then elisp_finish (na_flag fl p) (scratch ++ p)
              else x <- parse_elisp_escape f ;;
                   elisp_str_slice f (note_escape (na_flag fl p) (snd x)) (scratch ++ p ++ fst x)) r' /\
             at_bytes r' tail /\ rk r' = rk r.
Proof.
  intros Hp Ht Ha. destruct (span_run r p t tail Hp Ht Ha) as (rest & r' & E & Er & H).
  exists r'. cbn [elisp_str_slice]. rewrite E, Er. destruct (t =? 34); auto.
Qed.

(* [p] is the run of plain bytes read so far *)
Lemma elisp_str_slice_spec s : forall p fuel fl scratch r rest, plain_run p ->
  (length (ebody s) + 8 < fuel)%nat -> seen_ub fl = false -> at_bytes r (p ++ ebody s ++ 34 :: rest) ->
  exists fl' r', elisp_str_slice fuel fl scratch r = elisp_finish fl' (scratch ++ p ++ s) r' /\ seen_ub fl' = false /\
                 at_bytes r' rest /\ rk r' = rk r.
Proof.
  induction s as [|b s IH]; intros p fuel fl scratch r rest Hp Hf Hub Ha; cbn [ebody flat_map app] in Ha, Hf.
  - destruct fuel as [|f]; [lia|].
    destruct (elisp_slice_step f fl scratch r p 34 rest Hp (or_intror eq_refl) Ha) as (r1 & E1 & Ha1 & Hk1).
    exists (na_flag fl p), r1. rewrite E1, app_nil_r, na_flag_ub. auto.
  - fold (ebody s) in *. rewrite app_length in Hf. destruct (escape_of b) as [e|] eqn:Ee.
    + destruct (eescape_roundtrip b e Ee) as (body & Eb & Hbody). rewrite Eb in *.
      cbn [app length] in Ha, Hf. rewrite <- app_assoc in Ha. destruct fuel as [|f]; [lia|].
      destruct (elisp_slice_step f fl scratch r p 92 _ Hp (or_introl eq_refl) Ha) as (r1 & E1 & Ha1 & Hk1).
      destruct (Hbody f r1 _ ltac:(lia) Ha1) as (ec & r2 & E2 & Hec & Ha2 & Hk2).
      destruct (IH [] f (note_escape (na_flag fl p) ec) (scratch ++ p ++ [b]) r2 rest (Forall_nil _) ltac:(lia)
                  (note_no_ub _ ec Hec ltac:(rewrite na_flag_ub; exact Hub)) Ha2) as (fl' & r3 & E3 & Hub3 & Ha3 & Hk3).
      exists fl', r3. rewrite E1. change (92 =? 34) with false. cbv iota.
      rewrite (bind_ok _ _ _ _ _ E2). cbn [fst snd]. rewrite E3, <- !app_assoc. repeat split; auto; congruence.
    + destruct (eescape_none_plain b Ee) as (Eb & _). rewrite Eb in *. cbn [app length] in Ha, Hf.
      destruct (IH (p ++ [b]) fuel fl scratch r rest) as (fl' & r' & E & H);
        [apply Forall_app; split; [exact Hp|repeat constructor; exact Ee]|lia|exact Hub|rewrite <- app_assoc; exact Ha|].
      exists fl', r'. rewrite E, <- app_assoc. auto.
Qed.

Lemma elisp_finish_multibyte fl b r : seen_ub fl = false -> utf8_valid b = true ->
  elisp_finish fl b r = (Ok (ElMultibyte b), r).
Proof. intros Hub Hv. unfold elisp_finish. rewrite Hub. cbn [andb]. unfold bind, Scan.as_str. rewrite Hv. reflexivity. Qed.

Lemma parse_elisp_str_spec s fuel r rest : utf8_valid s = true -> (length (ebody s) + 8 < fuel)%nat ->
  at_bytes r (ebody s ++ 34 :: rest) ->
  exists r', parse_elisp_str_rd fuel r = (Ok (ElMultibyte s), r') /\ at_bytes r' rest /\ rk r' = rk r.
Proof.
  intros Hv Hf Ha. unfold parse_elisp_str_rd. cbv zeta.
  set (fl0 := {| seen_ub := false; seen_mb := false; seen_na := false |}).
  destruct (elisp_str_slice_spec s [] fuel fl0 [] r rest (Forall_nil _) Hf eq_refl Ha) as (fl1 & r1 & E1 & Hub1 & H1).
  destruct (elisp_str_io_spec s fuel fl0 [] r rest Hf eq_refl Ha) as (fl2 & r2 & E2 & Hub2 & H2).
  rewrite (elisp_finish_multibyte _ _ _ Hub1 Hv) in E1. rewrite (elisp_finish_multibyte _ _ _ Hub2 Hv) in E2.
  destruct (rk r); [exists r1|exists r1|exists r2]; auto.
Qed.

Section ElispStr.
  Variable alpha : N -> bool.
  Variable fast : bool.
  Variable std_parse : N -> Z -> f64.
  Local Notation parse_token := (parse_token elisp_ro alpha fast std_parse).

  Lemma etoken_string fuel :
    parse_token fuel 34 = (eat_char ;;; e <- parse_elisp_str_rd fuel ;;
                           match e with ElMultibyte s => ret (TString s) | ElUnibyte b => ret (TBytes b) end).
  Proof. reflexivity. Qed.

  Theorem etok_string fuel r s rest : utf8_valid s = true -> (length (estr_text s) + 8 < fuel)%nat ->
    at_bytes r (estr_text s ++ rest) -> peeked r ->
    exists r', parse_token fuel 34 r = (Ok (TString s), r') /\ at_bytes r' rest /\ rk r' = rk r.
  Proof.
    intros Hv Hf Ha Hp. unfold estr_text in *. fold (ebody s) in *. cbn [app] in Ha. rewrite <- app_assoc in Ha. cbn [app] in Ha.
    rewrite etoken_string. step.
    destruct (parse_elisp_str_spec s fuel r0 rest Hv ltac:(rewrite !app_length in Hf; cbn [length] in Hf; lia) Ha0)
      as (r1 & E1 & Ha1 & Hk1).
    rewrite (bind_ok _ _ _ _ _ E1). exists r1. unfold ret. repeat split; auto; congruence.
  Qed.
End ElispStr.

Lemma decode_octal_digit y : y < 8 -> decode_octal_val (48 + y) = Some y.
Proof.
  intros H. unfold decode_octal_val, in_range. replace ((48 <=? 48 + y) && (48 + y <=? 55)) with true by lia. f_equal. lia.
Qed.

Lemma octal_loop_spec fuel r n y z t tail : (3 < fuel)%nat -> y < 8 -> z < 8 -> n < 8 -> t = 92 \/ t = 34 ->
  at_bytes r ((48 + y) :: (48 + z) :: t :: tail) ->
  exists r', elisp_octal_loop fuel n r = (Ok ((n * 8 + y) * 8 + z), r') /\ at_bytes r' (t :: tail) /\ rk r' = rk r.
Proof.
  intros Hf Hy Hz Hn Ht Ha. destruct fuel as [|[|[|f]]]; try lia. cbn [elisp_octal_loop].
  step. rewrite (decode_octal_digit y Hy). step. replace (cp_limit <=? n) with false by (unfold cp_limit; lia).
  step. rewrite (decode_octal_digit z Hz). step. replace (cp_limit <=? n * 8 + y) with false by (unfold cp_limit; lia).
  step. assert (Hd : decode_octal_val t = None) by (destruct Ht as [->| ->]; reflexivity). rewrite Hd.
  finish_at.
Qed.

Lemma octal_escape_digits x y z fuel r t tail : x < 4 -> y < 8 -> z < 8 -> (6 < fuel)%nat -> t = 92 \/ t = 34 ->
  at_bytes r ((48 + x) :: (48 + y) :: (48 + z) :: t :: tail) ->
  exists r', parse_elisp_escape fuel r = (Ok ([(x * 8 + y) * 8 + z], EscUnibyte), r') /\ at_bytes r' (t :: tail) /\ rk r' = rk r.
Proof.
  intros Hx Hy Hz Hf Ht Ha. unfold parse_elisp_escape. step_noe.
  (* a digit is none of the escape letters *)
  repeat match goal with |- context [48 + x =? ?k] => replace (48 + x =? k) with false by lia end.
  replace (in_range 48 55 (48 + x)) with true by (unfold in_range; lia). cbv iota.
  unfold decode_elisp_octal_escape. replace (48 + x - 48) with x by lia.
  destruct (octal_loop_spec fuel r0 x y z t tail ltac:(lia) Hy Hz ltac:(lia) Ht Ha0) as (r1 & E1 & Ha1 & Hk1).
  rewrite (bind_ok _ _ _ _ _ E1). unfold elisp_char_escape_of.
  replace (is_scalar _) with true by (unfold is_scalar; lia). replace (255 <? _) with false by lia.
  exists r1. unfold ret. repeat split; auto; congruence.
Qed.

Lemma octal_escape_spec o fuel r t tail : o < 256 -> (6 < fuel)%nat -> t = 92 \/ t = 34 ->
  at_bytes r (octal_digit ((o / 64) mod 8) :: octal_digit ((o / 8) mod 8) :: octal_digit (o mod 8) :: t :: tail) ->
  exists r', parse_elisp_escape fuel r = (Ok ([o], EscUnibyte), r') /\ at_bytes r' (t :: tail) /\ rk r' = rk r.
Proof.
  intros Ho Hf Ht Ha. unfold octal_digit in Ha.
  pose proof (octal_escape_digits ((o / 64) mod 8) ((o / 8) mod 8) (o mod 8) fuel r t tail) as H.
  replace (((o / 64) mod 8 * 8 + (o / 8) mod 8) * 8 + o mod 8) with o in H by lia. apply H; auto; lia.
Qed.

Definition obody (bs : bytes) : bytes := flat_map octal_text bs.
Definition ubf (fl : elisp_flags) : elisp_flags := {| seen_ub := true; seen_mb := seen_mb fl; seen_na := seen_na fl |}.
Definition after_bytes (fl : elisp_flags) (bs : bytes) : elisp_flags := match bs with [] => fl | _ => ubf fl end.

Lemma obody_head bs rest : exists t tail, obody bs ++ 34 :: rest = t :: tail /\ (t = 92 \/ t = 34).
Proof. destruct bs as [|o bs]; cbn [obody flat_map octal_text app]; eexists; eexists; split; try reflexivity; auto. Qed.

Lemma after_bytes_cons fl o bs : after_bytes (ubf fl) bs = after_bytes fl (o :: bs).
Proof. destruct bs; reflexivity. Qed.

Lemma bytes_io_spec bs : forall fuel fl scratch r rest, octets_ok bs -> (length (obody bs) + 8 < fuel)%nat ->
  at_bytes r (obody bs ++ 34 :: rest) ->
  exists r', elisp_str_io fuel fl scratch r = elisp_finish (after_bytes fl bs) (scratch ++ bs) r' /\
             at_bytes r' rest /\ rk r' = rk r.
Proof.
  induction bs as [|o bs IH]; intros fuel fl scratch r rest Hok Hf Ha;
    (destruct fuel as [|f]; [lia|]); cbn [elisp_str_io].
  - cbn [obody flat_map app] in Ha. step_noe. change (34 =? 34) with true. cbv iota.
    exists_at. rewrite app_nil_r. auto.
  - inversion Hok as [|? ? Ho Hok']; subst.
    cbn [obody flat_map octal_text app] in Ha, Hf. fold (obody bs) in Ha, Hf. cbn [length] in Hf.
    step_noe. change (92 =? 34) with false. change (92 =? 92) with true. cbv iota.
    destruct (obody_head bs rest) as (t & tail & Et & Ht). rewrite Et in *.
    destruct (octal_escape_spec o f r0 t tail Ho ltac:(lia) Ht Ha0) as (r1 & E1 & Ha1 & Hk1).
    rewrite (bind_ok _ _ _ _ _ E1). cbn [fst snd note_escape]. fold (ubf fl). rewrite <- Et in Ha1.
    destruct (IH f (ubf fl) (scratch ++ [o]) r1 rest Hok' ltac:(lia) Ha1) as (r2 & E2 & Ha2 & Hk2).
    exists r2. rewrite E2, <- app_assoc, (after_bytes_cons fl o bs). repeat split; auto; congruence.
Qed.

Lemma bytes_slice_spec bs : forall fuel fl scratch r rest, octets_ok bs -> (length (obody bs) + 8 < fuel)%nat ->
  at_bytes r (obody bs ++ 34 :: rest) ->
  exists r', elisp_str_slice fuel fl scratch r = elisp_finish (after_bytes fl bs) (scratch ++ bs) r' /\
             at_bytes r' rest /\ rk r' = rk r.
Proof.
  induction bs as [|o bs IH]; intros fuel fl scratch r rest Hok Hf Ha; (destruct fuel as [|f]; [lia|]).
  - cbn [obody flat_map app] in Ha.
    destruct (elisp_slice_step f fl scratch r [] 34 rest (Forall_nil _) (or_intror eq_refl) Ha) as (r1 & E1 & Ha1 & Hk1).
    exists r1. rewrite E1, !app_nil_r. auto.
  - inversion Hok as [|? ? Ho Hok']; subst.
    cbn [obody flat_map octal_text app] in Ha, Hf. fold (obody bs) in Ha, Hf. cbn [length] in Hf.
    destruct (elisp_slice_step f fl scratch r [] 92 _ (Forall_nil _) (or_introl eq_refl) Ha) as (r1 & E1 & Ha1 & Hk1).
    rewrite E1. change (92 =? 34) with false. change (na_flag fl []) with fl. cbv iota.
    destruct (obody_head bs rest) as (t & tail & Et & Ht). rewrite Et in *.
    destruct (octal_escape_spec o f r1 t tail Ho ltac:(lia) Ht Ha1) as (r2 & E2 & Ha2 & Hk2).
    rewrite (bind_ok _ _ _ _ _ E2). cbn [fst snd note_escape app]. fold (ubf fl). rewrite <- Et in Ha2.
    destruct (IH f (ubf fl) (scratch ++ [o]) r2 rest Hok' ltac:(lia) Ha2) as (r3 & E3 & Ha3 & Hk3).
    exists r3. rewrite E3, <- app_assoc, (after_bytes_cons fl o bs). repeat split; auto; congruence.
Qed.

(* what an Emacs Lisp unibyte string reads back as: bytes, or the empty string *)
Definition bytes_token (bs : bytes) : token := match bs with [] => TString [] | _ => TBytes bs end.

Section ElispBytes.
  Variable alpha : N -> bool.
  Variable fast : bool.
  Variable std_parse : N -> Z -> f64.
  Local Notation parse_token := (parse_token elisp_ro alpha fast std_parse).

  Theorem etok_bytes fuel r bs rest : octets_ok bs -> (length (ebytes_text bs) + 8 < fuel)%nat ->
    at_bytes r (ebytes_text bs ++ rest) -> peeked r ->
    exists r', parse_token fuel 34 r = (Ok (bytes_token bs), r') /\ at_bytes r' rest /\ rk r' = rk r.
  Proof.
    intros Hok Hf Ha Hp. unfold ebytes_text in *. fold (obody bs) in *. cbn [app] in Ha. rewrite <- app_assoc in Ha. cbn [app] in Ha.
    rewrite (etoken_string alpha fast std_parse fuel). step.
    assert (Hf' : (length (obody bs) + 8 < fuel)%nat) by (rewrite !app_length in Hf; cbn [length] in Hf; lia).
    set (fl0 := {| seen_ub := false; seen_mb := false; seen_na := false |}).
    assert (Hrun : exists r1, parse_elisp_str_rd fuel r0 = elisp_finish (after_bytes fl0 bs) bs r1 /\ at_bytes r1 rest /\ rk r1 = rk r0).
    { unfold parse_elisp_str_rd. cbv zeta. fold fl0.
      destruct (bytes_slice_spec bs fuel fl0 [] r0 rest Hok Hf' Ha0) as (r1 & E1 & H1).
      destruct (bytes_io_spec bs fuel fl0 [] r0 rest Hok Hf' Ha0) as (r2 & E2 & H2).
      destruct (rk r0); [exists r1|exists r1|exists r2]; auto. }
    destruct Hrun as (r1 & E1 & Ha1 & Hk1). unfold bind. rewrite E1.
    destruct bs as [|o bs]; cbn [after_bytes bytes_token].
    - unfold elisp_finish, fl0. cbn [seen_ub andb]. unfold bind, Scan.as_str. cbn. exists r1. repeat split; auto; congruence.
    - unfold elisp_finish, ubf, fl0. cbn [seen_ub seen_mb seen_na andb orb negb]. unfold ret. exists r1. repeat split; auto; congruence.
  Qed.
End ElispBytes.
