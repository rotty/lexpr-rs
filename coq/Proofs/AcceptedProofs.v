(* C13: every value the default parser returns from byte-slice or stream input
   lies, once it is free of floats, in the class of values that C01 proves to
   round-trip. Postconditions are carried through scanners, numbers,
   characters, tokens and the list / vector loops. *)
From Coq Require Import SpecFloat Lia ZifyBool ZifyNat ZifyN.
Require Import Base Value Float PrintOptions Printer ParseOptions Utf8 Reader Scan Num NumberOps Parser Depth.
Require Import ScanProofs TokenProofs RadixProofs CharStrProofs RoundtripProofs.
Require Import RelFramework Utf8Proofs DepthBoundProofs Utf8ParseProofs SpanProofs.

Definition scan_post (scratch name : bytes) : Prop :=
  exists scanned, name = scratch ++ scanned /\ no_terminator scanned /\ beq_bytes name [46] = false.

Lemma always_scan_symbol_io fuel : forall scratch, always (scan_post scratch) (scan_symbol_io fuel scratch).
Proof.
  induction fuel as [|f IH]; intros scratch; cbn [scan_symbol_io]; [apply always_fuel|].
  apply always_skip. intros o. destruct o as [ch|].
  - destruct (is_symbol_terminator ch) eqn:Et.
    + destruct (beq_bytes scratch [46]) eqn:Ed; [apply always_err|]. apply always_ret.
      exists []. rewrite app_nil_r. repeat split; [constructor|exact Ed].
    + apply always_skip. intros _. apply (always_weaken (scan_post (scratch ++ [ch]))); [|apply IH].
      intros name (scanned & E & Hn & Hd). exists (ch :: scanned). rewrite <- app_assoc in E.
      split; [exact E|]. split; [constructor; assumption|exact Hd].
  - destruct (is_truncated_symbol scratch); [apply always_err|]. destruct (beq_bytes scratch [46]) eqn:Ed; [apply always_err|].
    apply always_ret. exists []. rewrite app_nil_r. repeat split; [constructor|exact Ed].
Qed.

Lemma span_symbol_noterm l : forall acc, exists run, fst (span_symbol l acc) = acc ++ run /\ no_terminator run.
Proof.
  induction l as [|[b| |e] l IH]; intros acc; cbn [span_symbol]; try (exists []; rewrite app_nil_r; split; [reflexivity|constructor]).
  destruct (is_symbol_terminator b) eqn:Et; [exists []; rewrite app_nil_r; split; [reflexivity|constructor]|].
  destruct (IH (acc ++ [b])) as (run & E & Hn). exists (b :: run). rewrite E, <- app_assoc. split; [reflexivity|].
  constructor; assumption.
Qed.

Lemma always_take_symbol_run : always (fun p => no_terminator (fst p)) take_symbol_run.
Proof.
  intros r. unfold take_symbol_run. destruct (span_symbol_noterm (rinput r) []) as (run & E & Hn).
  destruct (span_symbol (rinput r) []) as [scanned rest]. cbn [fst snd app] in *. subst scanned. exact Hn.
Qed.

Lemma always_scan_symbol_slice scratch : always (scan_post scratch) (scan_symbol_slice scratch).
Proof.
  eapply always_ext; [intros r; apply scan_symbol_slice_eq|]. cbv zeta.
  apply (always_bind (fun p => no_terminator (fst p))); [apply always_take_symbol_run|].
  intros p Hp. destruct (snd p && is_truncated_symbol (scratch ++ fst p))%bool; [apply always_err|].
  destruct (beq_bytes (scratch ++ fst p) [46]) eqn:Ed; [apply always_err|]. apply always_ret.
  exists (fst p). auto.
Qed.

Definition sym_post (scratch name : bytes) : Prop := scan_post scratch name /\ valid name.

Lemma ens_and {A} k (m : M A) (p q : A -> Prop) : ens k m p -> ens k m q -> ens k m (fun a => p a /\ q a).
Proof. intros Hp Hq r Hr. specialize (Hp r Hr). specialize (Hq r Hr). destruct (fst (m r)); auto. Qed.

(* a Hoare logic with reader pre/postconditions, for the places where
   what is scanned must be tied to the byte that was peeked *)
Definition hoare {A} (k : src_kind) (pre : reader -> Prop) (m : M A) (post : A -> reader -> Prop) : Prop :=
  forall r, rk r = k -> pre r -> match m r with (Ok a, r') => post a r' | _ => True end.

Lemma hoare_bind {A B} k pre (m : M A) (f : A -> M B) mid post :
  sat Rrk m -> hoare k pre m mid -> (forall a, hoare k (mid a) (f a) post) -> hoare k pre (bind m f) post.
Proof.
  intros Hs Hm Hf r Hr Hp. unfold bind. specialize (Hs r). specialize (Hm r Hr Hp). unfold R, Rrk in Hs.
  destruct (m r) as [[a|e] r1]; cbn [fst snd] in *; [|exact I]. apply (Hf a r1); [congruence|exact Hm].
Qed.
Lemma hoare_ret {A} k (pre : reader -> Prop) (a : A) (post : A -> reader -> Prop) :
  (forall r, pre r -> post a r) -> hoare k pre (ret a) post.
Proof. intros H r _ Hp. apply H. exact Hp. Qed.
Lemma hoare_err {A} k pre c (post : A -> reader -> Prop) : hoare k pre (error c) post /\ hoare k pre (peek_error c) post.
Proof. split; intros r _ _; [unfold error; destruct (r_position r)|unfold peek_error; destruct (r_peek_position r)]; exact I. Qed.
Lemma hoare_of_ens {A} k pre (m : M A) (q : A -> Prop) : ens k m q -> hoare k pre m (fun a _ => q a).
Proof. intros H r Hr _. specialize (H r Hr). destruct (m r) as [[a|e] r']; cbn [fst] in H; [exact H|exact I]. Qed.
Lemma hoare_always {A} k pre (m : M A) (q : A -> Prop) : always q m -> hoare k pre m (fun a _ => q a).
Proof. intros H r _ _. exact (H r). Qed.
Lemma ens_of_hoare {A} k (m : M A) (q : A -> Prop) : hoare k (fun _ => True) m (fun a _ => q a) -> ens k m q.
Proof. intros H r Hr. specialize (H r Hr I). destruct (m r) as [[a|e] r']; exact H. Qed.
Lemma hoare_weaken {A} k (pre pre' : reader -> Prop) (m : M A) (post post' : A -> reader -> Prop) :
  (forall r, pre' r -> pre r) -> (forall a r, post a r -> post' a r) -> hoare k pre m post -> hoare k pre' m post'.
Proof. intros H1 H2 H r Hr Hp. specialize (H r Hr (H1 r Hp)). destruct (m r) as [[a|e] r']; [apply H2; exact H|exact I]. Qed.
Lemma hoare_and {A} k pre (m : M A) p q : hoare k pre m p -> hoare k pre m q -> hoare k pre m (fun a r => p a r /\ q a r).
Proof. intros Hp Hq r Hr Hpre. specialize (Hp r Hr Hpre). specialize (Hq r Hr Hpre). destruct (m r) as [[a|e] r']; auto. Qed.

Lemma str_same b (p : bytes -> Prop) : p b -> always p (Scan.as_str b) /\ always p (finish_str b).
Proof.
  intros Hp. assert (H : always p (Scan.as_str b)).
  { intros r. unfold Scan.as_str. destruct (utf8_valid b); [exact Hp|]. unfold error. destruct (r_position r). exact I. }
  split; [exact H|]. intros r. unfold finish_str. destruct (rk r); [exact Hp|apply H|apply H].
Qed.

Lemma hoare_symbol_rd k pre fuel scratch (p : bytes -> Prop) : k <> SrcStr ->
  hoare k pre (scan_symbol_io fuel scratch) (fun b _ => p b) -> hoare k pre (scan_symbol_slice scratch) (fun b _ => p b) ->
  hoare k pre (parse_symbol_rd fuel scratch) (fun b _ => p b).
Proof.
  intros Hk Hio Hsl r Hr Hp. unfold parse_symbol_rd. rewrite Hr. destruct k; [contradiction| |].
  - refine (hoare_bind SrcSlice pre _ _ _ _ _ Hsl _ r Hr Hp); [rk_by sat_scan_symbol_slice|]. intros b r1 _ Hb. exact (proj2 (str_same b p Hb) r1).
  - refine (hoare_bind SrcIo pre _ _ _ _ _ Hio _ r Hr Hp); [rk_by sat_scan_symbol_io|]. intros b r1 _ Hb. exact (proj1 (str_same b p Hb) r1).
Qed.

Lemma ens_parse_symbol_rd_post k fuel scratch : k <> SrcStr -> ens k (parse_symbol_rd fuel scratch) (sym_post scratch).
Proof.
  intros Hk. apply ens_and; [|apply ens_parse_symbol_rd; exact Hk]. apply ens_of_hoare.
  apply (hoare_symbol_rd k _ fuel scratch (scan_post scratch) Hk); apply hoare_always; [apply always_scan_symbol_io|apply always_scan_symbol_slice].
Qed.

Definition num_ok (n : number) : Prop :=
  match n with PosInt u => u <= u64_MAX | NegInt i => (i64_min <= i < 0)%Z | Float _ => True end.

Section NumPosts.
  Variable fast : bool.
  Variable std_parse : N -> Z -> f64.
  Variable k : src_kind.

  Lemma always_float (m : M f64) : always num_ok (f <- m ;; ret (Float f)).
  Proof. apply always_skip. intros f. apply always_ret. exact I. Qed.

  Lemma always_parse_num_tail fuel radix pos res : res <= u64_MAX ->
    always num_ok (parse_num_tail fast std_parse fuel radix pos res).
  Proof.
    intros Hres. unfold parse_num_tail. apply always_skip. intros c.
    destruct (c =? 46). { destruct (negb (radix =? 10)); [apply always_err|apply always_float]. }
    destruct ((c =? 101) || (c =? 69))%bool. { destruct (negb (radix =? 10)); [apply always_err|apply always_float]. }
    destruct pos; [apply always_ret; exact Hres|].
    destruct (9223372036854775808 <? res) eqn:E; apply always_ret; [exact I|].
    unfold num_from_signed. destruct (0 <=? - Z.of_N res)%Z eqn:E0; cbn [num_ok]; unfold u64_MAX, i64_min in *; lia.
  Qed.

  Lemma always_num_literal_loop fuel : forall radix pos res, radix_ok radix -> res <= u64_MAX ->
    always num_ok (num_literal_loop fast std_parse fuel radix pos res).
  Proof.
    induction fuel as [|f IH]; intros radix pos res Hr Hres; cbn [num_literal_loop]; [apply always_fuel|].
    apply always_skip. intros c. destruct (digit_val (10 <? radix) c) as [digit|]; [|apply always_parse_num_tail; exact Hres].
    destruct (radix <=? digit) eqn:Ed; [apply always_err|]. apply always_skip. intros _.
    destruct (overflow_N res radix digit u64_MAX) eqn:Eo; [apply always_float|].
    apply IH; [exact Hr|]. apply (overflow_false_le res radix digit u64_MAX Hr ltac:(lia) Eo).
  Qed.

  Lemma always_parse_num_literal fuel radix pos : radix_ok radix ->
    always num_ok (parse_num_literal fast std_parse fuel radix pos).
  Proof.
    intros Hr. unfold parse_num_literal. apply always_skip. intros o. destruct o as [c|]; [|apply always_err].
    destruct (digit_val true c) as [d|] eqn:Ed; [|apply always_err]. destruct (radix <=? d); [apply always_err|].
    apply always_num_literal_loop; [exact Hr|]. pose proof (digit_val_lt true c d Ed). unfold u64_MAX. lia.
  Qed.

  Lemma always_parse_num_token fuel radix pos : radix_ok radix ->
    always num_ok (parse_num_token fast std_parse fuel radix pos).
  Proof.
    intros Hr. unfold parse_num_token. apply (always_bind num_ok); [apply always_parse_num_literal; exact Hr|].
    intros n Hn. apply always_skip. intros o. destruct o as [c|]; [destruct (is_delimiter c); [|apply always_err]|]; apply always_ret; exact Hn.
  Qed.

  Lemma always_parse_radix_literal fuel radix : radix_ok radix ->
    always num_ok (parse_radix_literal fast std_parse fuel radix).
  Proof.
    intros Hr. unfold parse_radix_literal. apply always_skip. intros c.
    destruct (c =? 45); [apply always_skip; intros _; apply always_parse_num_token; exact Hr|].
    destruct (c =? 43); [apply always_skip; intros _; apply always_parse_num_token; exact Hr|].
    apply always_parse_num_token; exact Hr.
  Qed.

  Lemma always_parse_number fuel : always num_ok (parse_number fast std_parse fuel).
  Proof.
    unfold parse_number. apply always_skip. intros c. destruct (c =? 35).
    - apply always_skip. intros _. apply always_skip. intros o. destruct o as [x|]; [|apply always_err].
      repeat match goal with |- always _ (if ?c then _ else _) => destruct c end; try apply always_err;
        apply always_parse_radix_literal; unfold radix_ok; auto.
    - apply always_parse_radix_literal. unfold radix_ok; auto.
  Qed.

  Lemma ens_parse_number fuel : ens k (parse_number fast std_parse fuel) num_ok.
  Proof. apply ens_always, always_parse_number. Qed.

  Lemma always_byte_list_loop fuel : forall close acc, octets_ok acc ->
    always octets_ok (byte_list_loop fast std_parse fuel close acc).
  Proof.
    induction fuel as [|f IH]; intros close acc Hacc; cbn [byte_list_loop]; [apply always_fuel|].
    apply always_skip. intros o. destruct o as [c|]; [|apply always_err].
    destruct (c =? close). { apply always_skip. intros _. apply always_ret. exact Hacc. }
    apply always_skip. intros n.
    destruct (num_as_u64 n) as [u|]; [|apply always_err]. destruct (255 <? u) eqn:E; [apply always_err|].
    apply IH. apply Forall_app. split; [exact Hacc|]. repeat constructor. lia.
  Qed.

  Lemma always_parse_byte_list fuel close : always octets_ok (parse_byte_list fast std_parse fuel close).
  Proof.
    unfold parse_byte_list. apply always_skip. intros o. destruct o as [c|]; [|apply always_err].
    destruct (c =? 40); [|apply always_err]. apply always_skip. intros _. apply always_byte_list_loop. constructor.
  Qed.
End NumPosts.

(* the bytes that decode_utf8_sequence_b has validated are one well-formed sequence *)
Lemma lead_useq b0 conts : length conts = cont_len b0 -> utf8_valid (b0 :: conts) = true -> useq (b0 :: conts).
Proof.
  unfold cont_len, in_range. intros Hlen Hv. apply valid_iff_seqs in Hv.
  inversion Hv as [|s l Hwf _ _ E]. apply wf_useq in Hwf.
  (* the sequence at the head has the length that the lead byte announces: nothing follows it *)
  assert (El : length (b0 :: conts) = length s).
  { cbn [length]. rewrite Hlen. destruct ((192 <=? b0) && (b0 <=? 223))%bool eqn:E1;
      destruct Hwf; injection E as <- _; cbn [length]; lia. }
  rewrite <- E, app_length in El. destruct l; [rewrite app_nil_r; exact Hwf|cbn [length] in El; lia].
Qed.

Lemma always_take_bytes n : forall acc, always (fun b => exists l, b = acc ++ l /\ length l = n) (take_bytes n acc).
Proof.
  induction n as [|n IH]; intros acc; cbn [take_bytes].
  - apply always_ret. exists []. rewrite app_nil_r. auto.
  - apply always_skip. intros o. destruct o as [c|]; [|apply always_err].
    eapply always_weaken; [|apply (IH (acc ++ [c]))]. cbv beta.
    intros b (l & E & Hl). exists (c :: l). rewrite E, <- app_assoc. cbn [length]. auto.
Qed.

Definition decode_post (b0 : N) (p : bytes * N) : Prop :=
  exists conts, fst p = b0 :: conts /\ length conts = cont_len b0 /\ lead_ok b0 = true /\
                utf8_valid (fst p) = true /\ snd p = utf8_decode_head (fst p).

Lemma always_decode_utf8_sequence_b b0 : always (decode_post b0) (decode_utf8_sequence_b b0).
Proof.
  unfold decode_utf8_sequence_b. destruct (in_range 192 223 b0 || in_range 224 247 b0)%bool eqn:El; [|apply always_err].
  cbv zeta. fold (cont_len b0).
  apply (always_bind (fun b => exists l, b = [b0] ++ l /\ length l = cont_len b0)); [apply always_take_bytes|].
  intros b (l & E & Hl). destruct (utf8_valid b) eqn:Ev; [|apply always_err]. apply always_ret.
  exists l. cbn [fst snd]. subst b. repeat split; auto.
Qed.

Lemma char_names_scalar name c : lookup_name name CHAR_NAMES = Some c -> is_scalar c = true.
Proof.
  unfold CHAR_NAMES. cbn [lookup_name].
  repeat (destruct (beq_bytes _ name); [intros H; inversion H; reflexivity|]). discriminate.
Qed.

Definition scalar (c : N) : Prop := is_scalar c = true.

Lemma always_parse_r6rs_char fuel : always scalar (parse_r6rs_char fuel).
Proof.
  unfold parse_r6rs_char. apply always_skip. intros initial.
  destruct (initial =? 120).
  { apply always_skip. intros o. destruct o as [n|]; [|apply always_ret; reflexivity].
    unfold open_ended_char. destruct (is_scalar n) eqn:E; [apply always_ret; exact E|].
    destruct (is_surrogate n); [|apply always_err]. apply always_skip. intros o2. destruct o2; apply always_err. }
  destruct (127 <? initial) eqn:Ehi.
  { unfold decode_utf8_sequence. apply (always_bind (decode_post initial)); [apply always_decode_utf8_sequence_b|].
    intros p (conts & E1 & Hlen & Hlead & Hv & E2). apply always_ret. unfold scalar. rewrite E2, E1.
    rewrite E1 in Hv. apply useq_scalar, lead_useq; assumption. }
  assert (Hsc : scalar initial) by (unfold scalar, is_scalar; lia).
  apply always_skip. intros o. destruct o as [nx|]; [|apply always_ret; exact Hsc].
  destruct (is_delimiter_chr nx); [apply always_ret; exact Hsc|].
  apply always_skip. intros _. apply always_skip. intros name.
  destruct (lookup_name name CHAR_NAMES) as [c|] eqn:El; [apply always_ret; exact (char_names_scalar name c El)|].
  apply always_skip. intros o2. destruct o2; [apply always_err|]. destruct (existsb _ CHAR_NAMES); apply always_err.
Qed.

Section TokPosts.
  Variable alpha : N -> bool.

  Definition kw_ok (s : bytes) : Prop := no_terminator s /\ symbol_ok s.

  Definition tok_ok (t : token) : Prop :=
    match t with
    | TSymbol s => plain_symbol alpha s
    | TKeyword s => kw_ok s
    | TString s => valid s
    | TChar c => scalar c
    | TNumber n => num_ok n
    | TQuotation s => plain_symbol alpha s
    | TByteVecOpen c | TVecOpen c | TListOpen c => c = 41
    | TBytes _ => False     (* only the Emacs Lisp string syntax produces it *)
    | TNull => False        (* only a non-default nil setting *)
    | TNil | TBool _ => True
    end.

  Lemma sym_post_inv scratch name : sym_post scratch name ->
    exists scanned, name = scratch ++ scanned /\ no_terminator scanned /\ symbol_ok name.
  Proof. intros [(scanned & E & Hn & Hd) Hv]. exists scanned. repeat split; assumption. Qed.

  Lemma plain_direct c name : (is_ascii_alpha c = true \/ In c ext_initial \/ c = 58) ->
    is_symbol_terminator c = false ->
    sym_post [] name -> (exists t, name = c :: t) -> plain_symbol alpha name.
  Proof.
    intros Hc Hct Hp (t & ->). destruct (sym_post_inv _ _ Hp) as (scanned & E & Hn & Hok). cbn [app] in E. subst scanned.
    split; [exact Hn|]. split; [exact Hok|]. left. exact Hc.
  Qed.
End TokPosts.

(* a peek has found that there is no next byte *)
Definition ended (r : reader) : Prop :=
  (rpending r = true /\ match rinput r with EByte _ :: _ => False | _ => True end) \/ (rpending r = false /\ rinput r = []).

Lemma hoare_peek k : hoare k (fun _ => True) peek
  (fun o r' => match o with Some b => at_byte b r' | None => ended r' end).
Proof.
  intros r _ _. unfold peek, r_peek. destruct (rpending r) eqn:Ep.
  - destruct (rinput r) as [|[b| |e] l] eqn:Ei.
    + left. rewrite Ei. auto.
    + split; [exact Ep|]. exists l. exact Ei.
    + left. rewrite Ei. auto.
    + left. rewrite Ei. auto.
  - pose proof (skip_intr_head (rinput r)) as Hh.
    destruct (skip_intr (rinput r)) as [|[b| |e] l] eqn:Es; try exact I.
    + right. cbn. auto.
    + split; [reflexivity|]. exists l. reflexivity.
    + contradiction.
Qed.

Lemma peek_ended r : ended r -> exists r', r_peek r = (Ok None, r') /\ ended r'.
Proof.
  intros [[Hp Hh]|[Hp Hi]]; unfold r_peek; rewrite Hp.
  - destruct (rinput r) as [|[b| |e] l] eqn:Ei; try contradiction; exists r; (split; [reflexivity|]); left; rewrite Ei; auto.
  - rewrite Hi. cbn. eexists. split; [reflexivity|]. right. cbn. auto.
Qed.

Definition starts_with (b : N) (scanned : bytes) : Prop :=
  if is_symbol_terminator b then scanned = [] else exists t, scanned = b :: t.

Definition scanned_from (scratch : bytes) (b : N) (name : bytes) : Prop :=
  exists scanned, name = scratch ++ scanned /\ starts_with b scanned.

Lemma scan_io_headed k fuel scratch b :
  hoare k (at_byte b) (scan_symbol_io fuel scratch) (fun name _ => scanned_from scratch b name).
Proof.
  intros r Hr Hh. destruct fuel as [|f]; [exact I|]. cbn [scan_symbol_io]. unfold bind, peek.
  rewrite (peek_at b r Hh). unfold scanned_from, starts_with. destruct (is_symbol_terminator b) eqn:Et.
  - destruct (beq_bytes scratch [46]); [unfold error; destruct (r_position r); exact I|].
    cbn. exists []. rewrite app_nil_r. auto.
  - cbn [eat_char]. pose proof (always_scan_symbol_io f (scratch ++ [b]) (r_discard r)) as H.
    destruct (scan_symbol_io f (scratch ++ [b]) (r_discard r)) as [[name|e] r']; [|exact I].
    destruct H as (scanned & E & _). exists (b :: scanned). rewrite <- app_assoc in E. split; [exact E|]. eexists; reflexivity.
Qed.

Lemma scan_io_ended k fuel scratch :
  hoare k ended (scan_symbol_io fuel scratch) (fun name _ => name = scratch).
Proof.
  intros r Hr He. destruct fuel as [|f]; [exact I|]. cbn [scan_symbol_io]. unfold bind, peek.
  destruct (peek_ended r He) as (r' & E & _). rewrite E.
  destruct (is_truncated_symbol scratch); [unfold error; destruct (r_position r'); exact I|].
  destruct (beq_bytes scratch [46]); [unfold error; destruct (r_position r'); exact I|]. reflexivity.
Qed.

Lemma span_symbol_head b l acc : fst (span_symbol (EByte b :: l) acc) = acc \/ exists t, fst (span_symbol (EByte b :: l) acc) = acc ++ b :: t.
Proof.
  cbn [span_symbol]. destruct (is_symbol_terminator b); [left; reflexivity|].
  destruct (span_symbol_noterm l (acc ++ [b])) as (run & E & _). right. exists run. rewrite E, <- app_assoc. reflexivity.
Qed.

Lemma scan_slice_headed k scratch b :
  hoare k (at_byte b) (scan_symbol_slice scratch) (fun name _ => scanned_from scratch b name).
Proof.
  intros r Hr [Hp (l & El)]. unfold scan_symbol_slice. rewrite El. unfold scanned_from, starts_with.
  cbn [span_symbol]. destruct (is_symbol_terminator b) eqn:Et.
  - cbn [fst snd]. rewrite app_nil_r. destruct (_ && _)%bool; [unfold error; destruct (r_position _); exact I|].
    destruct (beq_bytes scratch [46]); [unfold error; destruct (r_position _); exact I|]. cbn. exists []. rewrite app_nil_r. auto.
  - destruct (span_symbol_noterm l ([] ++ [b])) as (run & E & _).
    destruct (span_symbol l ([] ++ [b])) as [scanned rest]. cbn [fst snd app] in *. subst scanned.
    destruct (_ && _)%bool; [unfold error; destruct (r_position _); exact I|].
    destruct (beq_bytes _ [46]); [unfold error; destruct (r_position _); exact I|]. cbn. exists (b :: run). split; [reflexivity|eexists; reflexivity].
Qed.

Lemma scan_slice_ended k scratch :
  hoare k ended (scan_symbol_slice scratch) (fun name _ => name = scratch).
Proof.
  intros r Hr He. unfold scan_symbol_slice.
  assert (Hs : fst (span_symbol (rinput r) []) = []).
  { destruct He as [[_ Hh]|[_ Hi]]; [|rewrite Hi; reflexivity]. destruct (rinput r) as [|[b| |e] l]; try contradiction; reflexivity. }
  destruct (span_symbol (rinput r) []) as [scanned rest]. cbn [fst] in Hs. subst scanned. rewrite app_nil_r.
  destruct (_ && _)%bool; [unfold error; destruct (r_position _); exact I|].
  destruct (beq_bytes scratch [46]); [unfold error; destruct (r_position _); exact I|]. reflexivity.
Qed.

Lemma sym_headed k fuel scratch b : k <> SrcStr ->
  hoare k (at_byte b) (parse_symbol_rd fuel scratch) (fun name _ => sym_post scratch name /\ scanned_from scratch b name).
Proof.
  intros Hk. apply hoare_and; [apply hoare_of_ens, ens_parse_symbol_rd_post; exact Hk|].
  apply (hoare_symbol_rd k _ fuel scratch (scanned_from scratch b) Hk); [apply scan_io_headed|apply scan_slice_headed].
Qed.

Lemma sym_ended k fuel scratch : k <> SrcStr ->
  hoare k ended (parse_symbol_rd fuel scratch) (fun name _ => name = scratch).
Proof.
  intros Hk. apply (hoare_symbol_rd k _ fuel scratch (fun name => name = scratch) Hk); [apply scan_io_ended|apply scan_slice_ended].
Qed.

Lemma conts_high b0 conts : length conts = cont_len b0 -> utf8_valid (b0 :: conts) = true -> Forall (fun c => 128 <= c) conts.
Proof.
  intros Hlen Hv. destruct (useq_bytes _ (lead_useq b0 conts Hlen Hv)) as (b & t & E & _ & Ht). injection E as _ <-.
  eapply Forall_impl; [|exact Ht]. unfold is_cont, in_range. intros c Hc. lia.
Qed.

Lemma high_not_terminator c : 128 <= c -> is_symbol_terminator c = false.
Proof. intros H. unfold is_symbol_terminator, memb. cbn [existsb]. lia. Qed.

Section TokenOk.
  Variable alpha : N -> bool.
  Variable fast : bool.
  Variable std_parse : N -> Z -> f64.
  Variable k : src_kind.
  Hypothesis Hk : k <> SrcStr.
  Local Notation ro := default_ro.

  Definition tok_ok' (t : token) : Prop :=
    match t with
    | TSymbol s => plain_symbol alpha s
    | TKeyword s => kw_ok s
    | TString s => valid s
    | TChar c => scalar c
    | TNumber n => num_ok n
    | TQuotation s => plain_symbol alpha s
    | TBytes _ | TNull => False
    | _ => True
    end.

  Lemma quote_names_plain :
    plain_symbol alpha (s2b "quote") /\ plain_symbol alpha (s2b "quasiquote") /\
    plain_symbol alpha (s2b "unquote") /\ plain_symbol alpha (s2b "unquote-splicing").
  Proof.
    unfold plain_symbol, symbol_ok, no_terminator.
    repeat split; try reflexivity; try (repeat constructor); left; left; reflexivity.
  Qed.

  Lemma direct_symbol_arm fuel b (mk : bytes -> token) : (is_ascii_alpha b = true \/ In b ext_initial \/ b = 58) ->
    (forall s, plain_symbol alpha s -> tok_ok' (mk s)) ->
    hoare k (at_byte b) (s <- parse_symbol fuel ;; ret (mk s)) (fun tok _ => tok_ok' tok).
  Proof. clear std_parse.
    intros Hc Hmk. assert (Ht : is_symbol_terminator b = false).
    { destruct Hc as [Ha|[Hi| ->]]; [| |reflexivity].
      - unfold is_ascii_alpha, is_ascii_lower, is_ascii_upper, in_range in Ha. unfold is_symbol_terminator, memb. cbn [existsb]. lia.
      - unfold ext_initial in Hi. cbn in Hi. repeat (destruct Hi as [<-|Hi]; [reflexivity|]). contradiction. }
    apply (hoare_bind k _ _ _ (fun name _ => plain_symbol alpha name)); [rk_by sat_parse_symbol_rd| |intros s; apply hoare_ret; intros r; apply Hmk].
    unfold parse_symbol. eapply hoare_weaken; [intros r H; exact H| |apply (sym_headed k fuel [] b Hk)].
    intros name r [Hp (scanned & E & Hs)]. unfold starts_with in Hs. rewrite Ht in Hs. destruct Hs as (t & ->).
    exact (plain_direct alpha b name Hc Ht Hp (ex_intro _ t E)).
  Qed.

  Lemma ext_is_direct b : memb b SYMBOL_EXTENDED = true -> In b ext_initial \/ b = 58.
  Proof.
    intros H. apply existsb_exists in H. destruct H as (x & Hin & E). apply N.eqb_eq in E. subst x.
    cbn in Hin |- *. repeat (destruct Hin as [<-|Hin]; [tauto|]). contradiction.
  Qed.

  Lemma ens_kw_arm fuel : ens k (s <- parse_symbol fuel ;; ret (TKeyword s)) tok_ok'.
  Proof.
    apply (ens_bind k _ _ (sym_post []) tok_ok'); [rk_by sat_parse_symbol_rd|apply ens_parse_symbol_rd_post; exact Hk|].
    intros s Hs. apply ens_ret. destruct (sym_post_inv _ _ Hs) as (scanned & E & Hn & Hok).
    cbn [app] in E. subst scanned. split; assumption.
  Qed.
  Lemma always_number_arm (m : M number) : always num_ok m -> always tok_ok' (n <- m ;; ret (TNumber n)).
  Proof. intros H. apply (always_bind num_ok _ _ _ H). intros n Hn. apply always_ret. exact Hn. Qed.
  Lemma always_char_arm fuel : always tok_ok' (ch <- parse_r6rs_char fuel ;; ret (TChar ch)).
  Proof. apply (always_bind scalar); [apply always_parse_r6rs_char|]. intros c0 Hc0. apply always_ret. exact Hc0. Qed.

  Theorem parse_token_ok fuel b :
    hoare k (at_byte b) (parse_token ro alpha fast std_parse fuel b) (fun tok _ => tok_ok' tok).
  Proof.
    destruct quote_names_plain as (Hq1 & Hq2 & Hq3 & Hq4).
    unfold parse_token.
    destruct (b =? 35).
    { apply hoare_of_ens.
      apply ens_bind_any; [rk_prim|]. intros _. apply ens_bind_any; [rk_prim|]. intros o. destruct o as [c|]; [|apply ens_err].
      cbn [ro_kw_octo ro_racket default_ro]. rewrite ?Bool.andb_false_r, ?Bool.andb_true_r.
      repeat match goal with
             | |- ens _ (if ?c then _ else _) _ => destruct c
             end;
        first [ apply ens_always; solve [alw] | apply ens_kw_arm | apply ens_always, always_char_arm
              | apply ens_always, always_number_arm, always_parse_radix_literal; unfold radix_ok; auto ]. }
    destruct ((b =? 45) || (b =? 43))%bool eqn:Esign.
    { apply (hoare_bind k _ _ _ (fun _ _ => True)); [rk_prim|intros r _ _; exact I|]. intros _.
      apply (hoare_bind k _ _ _ (fun nx r' => (at_byte nx r') \/ (nx = 0 /\ ended r'))); [rk_by sat_peek_or_null| |].
      - unfold peek_or_null. apply (hoare_bind k _ _ _ (fun o r' => match o with Some c => at_byte c r' | None => ended r' end)); [rk_prim|apply hoare_peek|].
        intros o. apply hoare_ret. intros r H. destruct o; auto.
      - intros nx. destruct ((nx =? 0) || is_delimiter nx || is_sign_subsequent nx || (nx =? 46) || (127 <? nx))%bool eqn:Ec.
        + unfold parse_symbol_suffix.
          apply (hoare_bind k _ _ _ (fun name _ => plain_symbol alpha name)); [rk_by sat_parse_symbol_rd| |intros name; apply hoare_ret; intros r H; exact H].
          intros r Hr [Hh|[-> He]].
          * pose proof (sym_headed k fuel [b] nx Hk r Hr Hh) as H.
            destruct (parse_symbol_rd fuel [b] r) as [[name|e] r']; [|exact I].
            destruct H as [Hp (scanned & E & Hs)]. destruct (sym_post_inv _ _ Hp) as (scanned' & E' & Hn & Hok).
            assert (scanned' = scanned) by (rewrite E in E'; apply app_inv_head in E'; auto). subst scanned'.
            subst name. cbn [app]. split; [constructor; [destruct (N.eqb_spec b 45) as [->|]; [reflexivity|]; destruct (N.eqb_spec b 43) as [->|]; [reflexivity|discriminate]|exact Hn]|].
            split; [exact Hok|]. right. left. split; [lia|].
            unfold starts_with in Hs. destruct (is_symbol_terminator nx); [subst scanned; exact I|].
            destruct Hs as (t & ->). exact Ec.
          * pose proof (sym_ended k fuel [b] Hk r Hr He) as H.
            destruct (parse_symbol_rd fuel [b] r) as [[name|e] r']; [|exact I]. subst name.
            assert (Hb : b = 43 \/ b = 45) by lia.
            split; [destruct Hb as [->| ->]; repeat constructor|]. split; [destruct Hb as [->| ->]; split; reflexivity|].
            right. left. split; [exact Hb|exact I].
        + apply hoare_always, always_number_arm, always_parse_num_token. unfold radix_ok; auto. }
    destruct (is_digit b).
    { cbn [ro_digit default_ro]. apply hoare_always, always_number_arm, always_parse_num_token. unfold radix_ok; auto. }
    destruct (b =? 34).
    { apply hoare_of_ens. apply ens_bind_any; [rk_prim|]. intros _. cbn [ro_string default_ro].
      apply (ens_bind k _ _ valid tok_ok'); [rk_by sat_parse_r6rs_str_rd|apply ens_parse_r6rs_str_rd; exact Hk|]. intros s Hs. apply ens_ret. exact Hs. }
    destruct (b =? 40); [apply hoare_always; alw|].
    destruct (b =? 91); [apply hoare_always; alw|].
    destruct (N.eqb_spec b 58) as [->|Hn58]; [apply direct_symbol_arm; auto|].
    destruct (is_ascii_alpha b) eqn:Ea; [apply direct_symbol_arm; auto|].
    replace ((b =? 63) && match ro_char ro with ChrR6RS => false | ChrElisp => true end)%bool with false by (cbn; now rewrite Bool.andb_false_r).
    destruct (b =? 39); [apply hoare_always; alw|].
    destruct (b =? 96); [apply hoare_always; alw|].
    destruct (b =? 44); [apply hoare_always; alw|].
    destruct (127 <? b) eqn:Ehi.
    { apply hoare_of_ens. apply ens_bind_any; [rk_prim|]. intros _.
      apply (ens_bind k _ _ (decode_post b) tok_ok'); [rk_by sat_decode_utf8_sequence_b|apply ens_always, always_decode_utf8_sequence_b|].
      intros p (conts & E1 & Hlen & Hlead & Hv & E2). destruct (negb (alpha (snd p))) eqn:Eal; [apply ens_err|].
      unfold parse_symbol_suffix.
      apply (ens_bind k _ _ (sym_post (fst p)) tok_ok'); [rk_by sat_parse_symbol_rd|apply ens_parse_symbol_rd_post; exact Hk|].
      intros name Hp. apply ens_ret. destruct (sym_post_inv _ _ Hp) as (scanned & E & Hn & Hok).
      rewrite E1 in *. subst name. cbn [app symbol_token tok_ok'].
      pose proof (conts_high b conts Hlen Hv) as Hhigh.
      split; [|split; [exact Hok|]].
      - constructor; [apply high_not_terminator; lia|]. apply Forall_app. split; [|exact Hn].
        eapply Forall_impl; [|exact Hhigh]. intros c Hc. apply high_not_terminator. exact Hc.
      - right. right. split; [lia|]. split; [exact Hlead|]. exists conts, scanned. repeat split; auto.
        rewrite <- E2. destruct (alpha (snd p)); [reflexivity|discriminate]. }
    destruct (memb b SYMBOL_EXTENDED) eqn:Eext.
    { destruct (ext_is_direct b Eext) as [Hi| ->]; [apply direct_symbol_arm; auto|contradiction]. }
    intros r _ _. unfold peek_error. destruct (r_peek_position r). exact I.
  Qed.
End TokenOk.

Section ValuesOk.
  Variable alpha : N -> bool.
  Variable fast : bool.
  Variable std_parse : N -> Z -> f64.
  Variable k : src_kind.
  Hypothesis Hk : k <> SrcStr.
  Local Notation ro := default_ro.
  Local Notation next_value := (next_value ro alpha fast std_parse).
  Local Notation parse_list := (parse_list ro alpha fast std_parse).
  Local Notation parse_vector := (parse_vector ro alpha fast std_parse).

  (* the C01 class with floats still allowed *)
  Fixpoint rt_okf (v : value) : Prop :=
    match v with
    | Nil | Null | Bool _ => True
    | Number n => num_ok n
    | Char c => is_scalar c = true
    | String s => utf8_valid s = true
    | Symbol s => plain_symbol alpha s
    | Keyword s => no_terminator s /\ symbol_ok s
    | Bytes b => octets_ok b
    | Cons a d => rt_okf a /\ rt_okf d
    | Vector l => (fix all (l : list value) : Prop := match l with [] => True | x :: l' => rt_okf x /\ all l' end) l
    end.
  Fixpoint float_free (v : value) : Prop :=
    match v with
    | Number (Float _) => False
    | Cons a d => float_free a /\ float_free d
    | Vector l => (fix all (l : list value) : Prop := match l with [] => True | x :: l' => float_free x /\ all l' end) l
    | _ => True
    end.

  Lemma rt_okf_float_free v : rt_okf v -> float_free v -> rt_ok alpha v.
  Proof.
    induction v as [| |b|n|c|s|s|s|bs|a d IHa IHd|l H] using value_ind'; cbn [rt_okf float_free rt_ok]; intros H1 H2;
      try exact I; try assumption.
    - destruct n as [u|i|f]; cbn [num_ok] in *; auto.
    - destruct H1, H2. split; auto.
    - revert H1 H2. induction H as [|x l Hx _ IH]; [auto|]. intros [Hx1 Hl1] [Hx2 Hl2]. split; [auto|]. apply IH; assumption.
  Qed.

  Definition vok (D : N) (v : value) : Prop := rt_okf v /\ N.of_nat (rdepth v) < D.

  (* Jg (kind k) of DepthBoundProofs written out: the two unfold to the same,
     so that judgement's rules apply *)
  Definition J {A} (D : N) (m : PM A) (post : A -> Prop) : Prop :=
    forall s, rk (rd s) = k -> depth s = D -> 1 <= D <= 128 ->
      match m s with (POk a, s') => post a /\ depth s' = D /\ rk (rd s') = k | (PErr _, _) => True end.

  Lemma J_liftR {A} D (m : M A) (q : A -> Prop) : sat Rrk m -> ens k m q -> J D (liftR m) q.
  Proof. intros Hs He. apply (Jg_liftR (kind k)), kind_liftR; assumption. Qed.
  Lemma J_liftR_any {A} D (m : M A) : sat Rrk m -> J D (liftR m) (fun _ => True).
  Proof. intros Hs. apply J_liftR; [exact Hs|apply ens_any]. Qed.
  Lemma J_weaken {A} D (m : PM A) (p q : A -> Prop) : (forall a, p a -> q a) -> J D m p -> J D m q.
  Proof. intros H Hm s Hr Hd HD. specialize (Hm s Hr Hd HD). destruct (m s) as [[a|e] s1]; [|exact I]. destruct Hm as (Hp & H1 & H2). auto. Qed.

  Lemma J_ws_token D f (kk : token -> PM (option value)) q :
    (forall tok, tok_ok' alpha tok -> J D (kk tok) q) ->
    (J D (pret None) q) ->
    J D (pbind (liftR (parse_whitespace f)) (fun o => match o with
                                                      | None => pret None
                                                      | Some b => pbind (liftR (parse_token ro alpha fast std_parse f b)) kk
                                                      end)) q.
  Proof.
    intros Hkk Hnone s Hr Hd HD. rewrite pbind_unfold. unfold liftR at 1.
    pose proof (ws_at_byte f (rd s)) as Hw.
    assert (Hrk : sat Rrk (parse_whitespace f)) by rk_by sat_parse_whitespace. specialize (Hrk (rd s)). unfold R, Rrk in Hrk.
    destruct (parse_whitespace f (rd s)) as [[o|e] r1]; cbn [fst snd] in *; [|exact I].
    destruct o as [b|].
    - rewrite pbind_unfold. unfold liftR at 1. cbn [rd depth].
      pose proof (parse_token_ok alpha fast std_parse k Hk f b r1 ltac:(congruence) Hw) as Ht.
      assert (Hrk2 : sat Rrk (parse_token ro alpha fast std_parse f b)) by rk_by sat_parse_token. specialize (Hrk2 r1). unfold R, Rrk in Hrk2.
      destruct (parse_token ro alpha fast std_parse f b r1) as [[tok|e] r2]; cbn [fst snd] in *; [|exact I].
      apply (Hkk tok Ht); cbn [rd depth]; auto; congruence.
    - apply Hnone; cbn [rd depth]; auto; congruence.
  Qed.

  Lemma build_ok D acc tail : Forall (vok D) acc -> rt_okf tail -> N.of_nat (rdepth_rest tail) < D ->
    rt_okf (build acc tail) /\ N.of_nat (rdepth_rest (build acc tail)) < D.
  Proof. clear fast std_parse Hk k.
    induction 1 as [|x acc [Hx1 Hx2] Hacc IH]; intros Ht Hd; cbn [build]; [auto|].
    destruct (IH Ht Hd) as [H1 H2]. cbn [rt_okf rdepth_rest]. split; [auto|lia].
  Qed.

  Lemma vector_ok D els : 1 < D -> Forall (vok (D - 1)) els -> vok D (Vector els).
  Proof. clear fast std_parse Hk k.
    intros HD H. split.
    - cbn [rt_okf]. induction H as [|x l [Hx _] _ IH]; auto.
    - cbn [rdepth]. pose proof (list_max_below rdepth (D - 1) els ltac:(lia) (Forall_impl _ (fun x Hx => proj2 Hx) H)). lia.
  Qed.

  Definition opt_vok (D : N) (o : option value) : Prop := match o with Some v => vok D v | None => True end.
  Definition list_post (D : N) (l : value) : Prop := rt_okf l /\ N.of_nat (rdepth_rest l) < D.

  Lemma atom_vok D v : 1 <= D -> rt_okf v -> rdepth v = 0%nat -> vok D v.
  Proof. clear fast std_parse Hk k. intros HD H1 H2. split; [exact H1|]. rewrite H2. lia. Qed.

  Lemma dot_symbol_plain name : sym_post [46] name -> plain_symbol alpha name.
  Proof.
    intros Hp. destruct (sym_post_inv _ _ Hp) as (scanned & E & Hn & Hok). subst name. cbn [app].
    split; [constructor; [reflexivity|exact Hn]|]. split; [exact Hok|]. left. right. left. cbn. tauto.
  Qed.

  Theorem values_ok fuel :
    (forall D, J D (next_value fuel) (opt_vok D)) /\
    (forall D t acc, Forall (vok D) acc -> J D (parse_list fuel t acc) (list_post D)) /\
    (forall D t acc, Forall (vok D) acc -> J D (parse_vector fuel t acc) (Forall (vok D))).
  Proof.
    induction fuel as [|f (IHv & IHl & IHvec)].
    - split; [|split]; intros; cbn [Parser.next_value Parser.parse_list Parser.parse_vector]; apply (Jg_fail (kind k)).
    - split; [|split]; intros; cbn [Parser.next_value Parser.parse_list Parser.parse_vector]; fold next_value parse_list parse_vector.
      + apply (Jg_assume (kind k)); intros HD0. apply J_ws_token; [|apply (Jg_ret (kind k)); exact I]. intros tok Ht.
        destruct tok; cbn [tok_ok'] in Ht; try contradiction;
          try (apply (Jg_ret (kind k)); apply atom_vok; cbn [rt_okf rdepth]; auto; lia).
        * (* list *)
          apply (Jg_nest (kind k) D _ _ _ (list_post (D - 1)) (opt_vok D)); [apply IHl; constructor|apply kind_liftR; [rk_by sat_end_seq|apply ens_any]|].
          intros l [Hl1 Hl2] HD. apply (Jg_ret (kind k)). split; [exact Hl1|]. pose proof (rdepth_le_rest l). lia.
        * (* quotation *)
          apply (Jg_nest_quote (kind k) D _ _ (opt_vok (D - 1)) (opt_vok D)); [apply IHv|].
          intros o Ho HD. destruct o as [d|]; [|apply (Jg_err (kind k))]. apply (Jg_ret (kind k)). destruct Ho as [Ho1 Ho2].
          split; [cbn [vlist build rt_okf]; auto|]. cbn [vlist build rdepth rdepth_rest]. lia.
        * (* vector *)
          apply (Jg_nest (kind k) D _ _ _ (Forall (vok (D - 1))) (opt_vok D)); [apply IHvec; constructor|apply kind_liftR; [rk_by sat_end_seq|apply ens_any]|].
          intros els Hels HD. apply (Jg_ret (kind k)). apply vector_ok; assumption.
        * (* byte vector *)
          apply (Jg_bind (kind k) D _ _ octets_ok (opt_vok D)); [apply J_liftR; [rk_by sat_parse_byte_list|apply ens_always, always_parse_byte_list]|].
          intros bs Hbs. apply (Jg_ret (kind k)). apply atom_vok; cbn [rt_okf rdepth]; auto; lia.
      + apply (Jg_assume (kind k)); intros HD0.
        apply (Jg_bind (kind k) D _ _ (fun _ => True) (list_post D)); [apply J_liftR_any; rk_by sat_parse_whitespace|].
        intros o _. destruct o as [c|]; [|apply (Jg_err (kind k))].
        destruct (is_closer c).
        { destruct (negb (c =? t)); [apply (Jg_err (kind k))|]. apply (Jg_ret (kind k)). apply (build_ok D acc Null H I); cbn [rdepth_rest]; lia. }
        destruct (c =? 46).
        { apply (Jg_bind (kind k) D _ _ (fun _ => True) (list_post D));
            [apply J_liftR_any; apply (sat_bind Rrk Rrk_seq); [exact rk_eat|intros _; exact rk_peek]|].
          intros nx _. destruct (lone_dot nx).
          - destruct acc as [|x acc'].
            + apply (Jg_bind (kind k) D _ _ (fun _ => True) (list_post D)); [apply J_liftR_any; exact rk_peek|]. intros o3 _. destruct o3; apply (Jg_err (kind k)).
            + apply (Jg_bind (kind k) D _ _ (opt_vok D) (list_post D)); [apply IHv|]. intros ov Hov.
              destruct ov as [cdr|]; [|apply (Jg_err (kind k))].
              apply (Jg_bind (kind k) D _ _ (fun _ => True) (list_post D)); [apply J_liftR_any; rk_by sat_parse_whitespace|].
              intros o2 _. destruct o2 as [c2|]; [|apply (Jg_err (kind k))]. destruct (c2 =? t); [|apply (Jg_err (kind k))].
              destruct Hov as [Hc1 Hc2]. apply (Jg_ret (kind k)).
              apply (build_ok D (x :: acc') cdr H Hc1); pose proof (rdepth_rest_le cdr); lia.
          - apply (Jg_bind (kind k) D _ _ (sym_post [46]) (list_post D));
              [apply J_liftR; [rk_by sat_parse_symbol_suffix|apply ens_parse_symbol_rd_post; exact Hk]|].
            intros name Hn. apply IHl. apply Forall_snoc; [exact H|]. rewrite symbol_value_default.
            split; [cbn [rt_okf]; apply dot_symbol_plain; exact Hn|]. cbn [rdepth]. lia. }
        apply (Jg_bind (kind k) D _ _ (opt_vok D) (list_post D)); [apply IHv|]. intros ov Hov.
        destruct ov as [v|]; [|apply (Jg_err (kind k))]. apply IHl. apply Forall_snoc; assumption.
      + apply (Jg_bind (kind k) D _ _ (fun _ => True) (Forall (vok D))); [apply J_liftR_any; rk_by sat_parse_whitespace|].
        intros o _. destruct o as [c|]; [|apply (Jg_err (kind k))].
        destruct (is_closer c). { destruct (negb (c =? t)); [apply (Jg_err (kind k))|]. apply (Jg_ret (kind k)). assumption. }
        apply (Jg_bind (kind k) D _ _ (opt_vok D) (Forall (vok D))); [apply IHv|]. intros ov Hov.
        destruct ov as [v|]; [|apply (Jg_err (kind k))]. apply IHvec. apply Forall_snoc; assumption.
  Qed.
End ValuesOk.

Section AcceptedEntry.
  Variable alpha : N -> bool.
  Variable fast : bool.
  Variable std_parse : N -> Z -> f64.

  Theorem accepted_in_class k inp v : k <> SrcStr ->
    from_trait default_ro alpha fast std_parse k inp = POk v ->
    rt_okf alpha v /\ (rdepth v <= 127)%nat.
  Proof.
    intros Hk E. destruct (from_trait_next _ _ _ _ _ _ _ E) as [s1 E1].
    pose proof (proj1 (values_ok alpha fast std_parse k Hk (fuel_for inp)) 128 (init_state k inp) eq_refl eq_refl ltac:(lia)) as H.
    rewrite E1 in H. destruct H as [[H1 H2] _]. split; [exact H1|lia].
  Qed.

  (* C13, default dialect: accepted, printed, read again: the same value, and the
     same text when printed again *)
  Theorem accepted_roundtrip ryu k k' inp v : k <> SrcStr ->
    from_trait default_ro alpha fast std_parse k inp = POk v -> float_free v ->
    from_trait default_ro alpha fast std_parse k' (bytes_events (print0 ryu v)) = POk v.
  Proof.
    intros Hk E Hf. destruct (accepted_in_class k inp v Hk E) as [H1 H2].
    rewrite TextProofs.print0_is_txt. apply roundtrip_from_trait; [|exact H2].
    apply (rt_okf_float_free alpha); assumption.
  Qed.
End AcceptedEntry.
