(* C04 / C14 / C18: the Serde round trip through S-expression values. *)
From Coq Require Import SpecFloat ZifyBool.
Require Import Base Value Float NumberOps ListOps SerdeModel NumberProofs ListProofs.

Inductive Forall3 {A B C} (R : A -> B -> C -> Prop) : list A -> list B -> list C -> Prop :=
| Forall3_nil : Forall3 R [] [] []
| Forall3_cons a b c la lb lc : R a b c -> Forall3 R la lb lc -> Forall3 R (a :: la) (b :: lb) (c :: lc).

Lemma Forall3_length {A B C} (R : A -> B -> C -> Prop) la lb lc : Forall3 R la lb lc -> length lc = length la.
Proof. induction 1; cbn [length]; congruence. Qed.

Section ty_ind'.
  Variable P : ty -> Prop.
  Variable Q : variant -> Prop.
  Hypothesis HBool : P TyBool.
  Hypothesis HInt : forall s b, P (TyInt s b).
  Hypothesis HF32 : P TyF32.
  Hypothesis HF64 : P TyF64.
  Hypothesis HChar : P TyChar.
  Hypothesis HString : P TyString.
  Hypothesis HByteBuf : P TyByteBuf.
  Hypothesis HUnit : P TyUnit.
  Hypothesis HOption : forall t, P t -> P (TyOption t).
  Hypothesis HSeq : forall t, P t -> P (TySeq t).
  Hypothesis HTuple : forall ts, Forall P ts -> P (TyTuple ts).
  Hypothesis HMap : forall k v, P k -> P v -> P (TyMap k v).
  Hypothesis HStruct : forall fs, Forall (fun f => P (snd f)) fs -> P (TyStruct fs).
  Hypothesis HNewtype : forall t, P t -> P (TyNewtype t).
  Hypothesis HEnum : forall vs, Forall (fun v => Q (snd v)) vs -> P (TyEnum vs).
  Hypothesis HVUnit : Q VUnit.
  Hypothesis HVNewtype : forall t, P t -> Q (VNewtype t).
  Hypothesis HVTuple : forall ts, Forall P ts -> Q (VTuple ts).
  Hypothesis HVStruct : forall fs, Forall (fun f => P (snd f)) fs -> Q (VStruct fs).

  Fixpoint ty_ind' (t : ty) : P t :=
    match t with
    | TyBool => HBool
    | TyInt s b => HInt s b
    | TyF32 => HF32
    | TyF64 => HF64
    | TyChar => HChar
    | TyString => HString
    | TyByteBuf => HByteBuf
    | TyUnit => HUnit
    | TyOption t' => HOption t' (ty_ind' t')
    | TySeq t' => HSeq t' (ty_ind' t')
    | TyTuple ts =>
        HTuple ts ((fix go (l : list ty) : Forall P l :=
                      match l with [] => Forall_nil _ | x :: l' => Forall_cons x (ty_ind' x) (go l') end) ts)
    | TyMap k v => HMap k v (ty_ind' k) (ty_ind' v)
    | TyStruct fs =>
        HStruct fs ((fix go (l : list (bytes * ty)) : Forall (fun f => P (snd f)) l :=
                       match l with
                       | [] => Forall_nil _
                       | x :: l' => Forall_cons (P := fun f => P (snd f)) x (ty_ind' (snd x)) (go l')
                       end) fs)
    | TyNewtype t' => HNewtype t' (ty_ind' t')
    | TyEnum vs =>
        HEnum vs ((fix go (l : list (bytes * variant)) : Forall (fun v => Q (snd v)) l :=
                     match l with
                     | [] => Forall_nil _
                     | x :: l' => Forall_cons (P := fun v => Q (snd v)) x (variant_ind' (snd x)) (go l')
                     end) vs)
    end
  with variant_ind' (v : variant) : Q v :=
    match v with
    | VUnit => HVUnit
    | VNewtype t => HVNewtype t (ty_ind' t)
    | VTuple ts =>
        HVTuple ts ((fix go (l : list ty) : Forall P l :=
                       match l with [] => Forall_nil _ | x :: l' => Forall_cons x (ty_ind' x) (go l') end) ts)
    | VStruct fs =>
        HVStruct fs ((fix go (l : list (bytes * ty)) : Forall (fun f => P (snd f)) l :=
                        match l with
                        | [] => Forall_nil _
                        | x :: l' => Forall_cons (P := fun f => P (snd f)) x (ty_ind' (snd x)) (go l')
                        end) fs)
    end.
End ty_ind'.

Section Roundtrip.
  Variable cast_f32 : f64 -> f64.
  Variable is_f32 : f64 -> bool.
  (* std: casting to f32 a value that already is an f32 changes nothing *)
  Hypothesis cast_id : forall f, is_f32 f = true -> cast_f32 f = f.

  Local Notation ser := (ser is_f32).
  Local Notation de := (de cast_f32).

  (* named copies of the loops nested in [ser] and [de], in the same shape
     (same captured parameters) so that they are convertible with them *)
  Definition ser_seq (t : ty) : list data -> option (list value) :=
    fix go (l : list data) : option (list value) :=
      match l with
      | [] => Some []
      | x :: l' => match ser t x, go l' with Some v, Some vs => Some (v :: vs) | _, _ => None end
      end.
  Definition ser_tuple : list ty -> list data -> option (list value) :=
    fix go (ts : list ty) (l : list data) : option (list value) :=
      match ts, l with
      | [], [] => Some []
      | t1 :: ts', x :: l' => match ser t1 x, go ts' l' with Some v, Some vs => Some (v :: vs) | _, _ => None end
      | _, _ => None
      end.
  Definition ser_map (kt vt : ty) : list (data * data) -> option (list value) :=
    fix go (l : list (data * data)) : option (list value) :=
      match l with
      | [] => Some []
      | (k, x) :: l' =>
          match ser kt k, ser vt x, go l' with
          | Some kv, Some xv, Some vs => Some (Cons kv xv :: vs)
          | _, _, _ => None
          end
      end.
  Definition ser_fields : list (bytes * ty) -> list data -> option (list value) :=
    fix go (fs : list (bytes * ty)) (l : list data) : option (list value) :=
      match fs, l with
      | [], [] => Some []
      | (name, t1) :: fs', x :: l' =>
          match ser t1 x, go fs' l' with
          | Some v, Some vs => Some (Cons (Symbol name) v :: vs)
          | _, _ => None
          end
      | _, _ => None
      end.

  Definition de_seq (t : ty) : list value -> sres (list data) :=
    fix go (l : list value) : sres (list data) :=
      match l with
      | [] => SOk []
      | x :: l' => sbind (de t x) (fun d => sbind (go l') (fun r => SOk (d :: r)))
      end.
  Definition de_tuple : list ty -> list value -> sres (list data) :=
    fix go (ts : list ty) (l : list value) : sres (list data) :=
      match ts, l with
      | [], _ => SOk []
      | t1 :: ts', x :: l' => sbind (de t1 x) (fun d => sbind (go ts' l') (fun r => SOk (d :: r)))
      | _ :: _, [] => SErr SData
      end.
  Definition de_map (kt vt : ty) : list (value * value) -> sres (list (data * data)) :=
    fix go (l : list (value * value)) : sres (list (data * data)) :=
      match l with
      | [] => SOk []
      | (k, x) :: l' =>
          sbind (de kt k) (fun dk => sbind (de vt x) (fun dx =>
          sbind (go l') (fun r => SOk ((dk, dx) :: r))))
      end.
  Definition de_fields (es : list (value * value)) : list (bytes * ty) -> sres (list data) :=
    fix go (fs : list (bytes * ty)) : sres (list data) :=
      match fs with
      | [] => SOk []
      | (name, t1) :: fs' =>
          sbind (match entries_for name es with
                 | [] => match t1 with TyOption _ => SOk DNone | _ => SErr SData end
                 | [x] => de t1 x
                 | _ => SErr SData
                 end) (fun d => sbind (go fs') (fun r => SOk (d :: r)))
      end.

  Lemma ser_seq_eq t l :
    ser (TySeq t) (DSeq l) = match ser_seq t l with Some vs => Some (value_list vs) | None => None end.
  Proof. reflexivity. Qed.
  Lemma ser_tuple_eq ts l :
    ser (TyTuple ts) (DTuple l) = match ser_tuple ts l with Some vs => Some (Vector vs) | None => None end.
  Proof. reflexivity. Qed.
  Lemma ser_map_eq kt vt l :
    ser (TyMap kt vt) (DMap l) = match ser_map kt vt l with Some vs => Some (value_list vs) | None => None end.
  Proof. reflexivity. Qed.
  Lemma ser_struct_eq fs l :
    ser (TyStruct fs) (DStruct l) = match ser_fields fs l with Some vs => Some (value_list vs) | None => None end.
  Proof. reflexivity. Qed.

  Lemma de_seq_eq t v :
    de (TySeq t) v = sbind (seq_access true v) (fun els => sbind (de_seq t els) (fun ds => SOk (DSeq ds))).
  Proof. reflexivity. Qed.
  Lemma de_tuple_eq ts v :
    de (TyTuple ts) v = sbind (tuple_access (length ts) v) (fun els => sbind (de_tuple ts els) (fun ds => SOk (DTuple ds))).
  Proof. reflexivity. Qed.
  Lemma de_map_eq kt vt v :
    de (TyMap kt vt) v = sbind (map_access v) (fun es => sbind (de_map kt vt es) (fun ds => SOk (DMap ds))).
  Proof. reflexivity. Qed.
  Lemma de_struct_eq fs v :
    de (TyStruct fs) v =
    sbind (map_access v) (fun es =>
      if forallb key_is_symbol es then sbind (de_fields es fs) (fun ds => SOk (DStruct ds)) else SErr SData).
  Proof. reflexivity. Qed.

  Lemma list_elems_build v vs : list_elems v (build vs Null) = SOk (v :: vs).
  Proof.
    revert v; induction vs as [|w ws IH]; intros v; cbn [build list_elems]; [reflexivity|].
    now rewrite IH.
  Qed.
  Lemma seq_access_list vs : seq_access true (value_list vs) = SOk vs.
  Proof. destruct vs as [|v vs]; [reflexivity|]. unfold value_list. cbn [build seq_access]. apply list_elems_build. Qed.

  Definition entry_of (e : value) : option (value * value) :=
    match e with Cons k x => Some (k, x) | _ => None end.
  Fixpoint entries_of (l : list value) : option (list (value * value)) :=
    match l with
    | [] => Some []
    | e :: l' => match entry_of e, entries_of l' with Some p, Some r => Some (p :: r) | _, _ => None end
    end.
  Lemma map_entries_build e es r : entries_of (e :: es) = Some r -> map_entries e (build es Null) = SOk r.
  Proof.
    revert e r; induction es as [|e2 es IH]; intros e r H.
    - cbn in H. destruct e; try discriminate. inversion H; subst. reflexivity.
    - cbn [entries_of] in H. destruct (entry_of e) as [p|] eqn:Ee; [|discriminate].
      destruct (entry_of e2) as [p2|] eqn:Ee2; [|discriminate].
      destruct (entries_of es) as [r2|] eqn:Er; [|discriminate]. inversion H; subst.
      destruct e; try discriminate. cbn in Ee. inversion Ee; subst.
      cbn [build map_entries]. rewrite (IH e2 (p2 :: r2)); [reflexivity|].
      cbn [entries_of]. now rewrite Ee2, Er.
  Qed.
  Lemma map_access_list l r : entries_of l = Some r -> map_access (value_list l) = SOk r.
  Proof.
    destruct l as [|e es]; intros H; [cbn in H; inversion H; reflexivity|].
    unfold value_list. cbn [build map_access]. now apply map_entries_build.
  Qed.

  Definition ser_variant (name : bytes) (var : variant) (p : payload) : option value :=
    match var, p with
    | VUnit, PUnit => Some (Symbol name)
    | VNewtype t', PNewtype x =>
        match ser t' x with Some v => Some (Cons (Symbol name) v) | None => None end
    | VTuple ts, PTuple l =>
        match ser_tuple ts l with
        | Some vs => Some (Cons (Symbol name) (value_list vs))
        | None => None
        end
    | VStruct fields, PStruct l =>
        match ser_fields fields l with
        | Some vs => Some (Cons (Symbol name) (value_list vs))
        | None => None
        end
    | _, _ => None
    end.
  Definition ser_find (name : bytes) (p : payload) : list (bytes * variant) -> option value :=
    fix find (vs : list (bytes * variant)) : option value :=
      match vs with
      | [] => None
      | (n, var) :: vs' => if beq_bytes n name then ser_variant name var p else find vs'
      end.
  Lemma ser_enum_eq vs name p : ser (TyEnum vs) (DEnum name p) = ser_find name p vs.
  Proof. reflexivity. Qed.

  Definition de_unit_find (name : bytes) : list (bytes * variant) -> sres data :=
    fix find (vs : list (bytes * variant)) : sres data :=
      match vs with
      | [] => SErr SData
      | (n, var) :: vs' =>
          if beq_bytes n name then
            match var with VUnit => SOk (DEnum name PUnit) | _ => SErr SData end
          else find vs'
      end.
  Definition de_variant (name : bytes) (rest : value) (var : variant) : sres data :=
    match var with
    | VUnit => SOk (DEnum name PUnit)
    | VNewtype t' => sbind (de t' rest) (fun d => SOk (DEnum name (PNewtype d)))
    | VTuple ts =>
        sbind (seq_access true rest) (fun els =>
        sbind (de_tuple ts els) (fun ds => SOk (DEnum name (PTuple ds))))
    | VStruct fields =>
        sbind (map_access rest) (fun es =>
        if forallb key_is_symbol es then
          sbind (de_fields es fields) (fun ds => SOk (DEnum name (PStruct ds)))
        else SErr SData)
    end.
  Definition de_cons_find (name : bytes) (rest : value) : list (bytes * variant) -> sres data :=
    fix find (vs : list (bytes * variant)) : sres data :=
      match vs with
      | [] => SErr SData
      | (n, var) :: vs' => if beq_bytes n name then de_variant name rest var else find vs'
      end.
  Lemma de_enum_symbol vs name : de (TyEnum vs) (Symbol name) = de_unit_find name vs.
  Proof. reflexivity. Qed.
  Lemma de_enum_cons vs name rest : de (TyEnum vs) (Cons (Symbol name) rest) = de_cons_find name rest vs.
  Proof. reflexivity. Qed.

  Fixpoint var_of (name : bytes) (vs : list (bytes * variant)) : option variant :=
    match vs with
    | [] => None
    | (n, var) :: vs' => if beq_bytes n name then Some var else var_of name vs'
    end.
  Lemma ser_find_var name p vs :
    ser_find name p vs = match var_of name vs with Some var => ser_variant name var p | None => None end.
  Proof. induction vs as [|[n var] vs IH]; cbn [ser_find var_of]; [reflexivity|]. destruct (beq_bytes n name); [reflexivity|exact IH]. Qed.
  Lemma de_unit_find_var name vs :
    de_unit_find name vs = match var_of name vs with Some VUnit => SOk (DEnum name PUnit) | _ => SErr SData end.
  Proof. induction vs as [|[n var] vs IH]; cbn [de_unit_find var_of]; [reflexivity|]. destruct (beq_bytes n name); [reflexivity|exact IH]. Qed.
  Lemma de_cons_find_var name rest vs :
    de_cons_find name rest vs = match var_of name vs with Some var => de_variant name rest var | None => SErr SData end.
  Proof. induction vs as [|[n var] vs IH]; cbn [de_cons_find var_of]; [reflexivity|]. destruct (beq_bytes n name); [reflexivity|exact IH]. Qed.
  Lemma var_of_In name vs var : var_of name vs = Some var -> In (name, var) vs.
  Proof.
    induction vs as [|[n var'] vs IH]; cbn [var_of]; [discriminate|]. destruct (beq_bytes n name) eqn:E; [|right; auto].
    intros [= ->]. apply beq_bytes_eq in E. subst. left. reflexivity.
  Qed.

  (* induction on the graph of [ser]: a property of (type, data, value)
     triples that every clause of the serializer preserves holds of all it produces *)
  Definition entry_rel (R : ty -> data -> value -> Prop) (kt vt : ty) (e : data * data) (w : value) : Prop :=
    exists kv xv, w = Cons kv xv /\ R kt (fst e) kv /\ R vt (snd e) xv.
  Definition field_rel (R : ty -> data -> value -> Prop) (f : bytes * ty) (x : data) (w : value) : Prop :=
    exists v, w = Cons (Symbol (fst f)) v /\ R (snd f) x v.

  Section ser_ind.
    Variable P : ty -> data -> value -> Prop.
    Variable Q : variant -> bytes -> payload -> value -> Prop.
    Hypothesis IBool : forall b, P TyBool (DBool b) (Bool b).
    Hypothesis IInt : forall s bits z, int_in_range s bits z = true -> P (TyInt s bits) (DInt z) (ser_int s bits z).
    Hypothesis IF32 : forall f, is_f32 f = true -> P TyF32 (DF32 f) (Number (Float f)).
    Hypothesis IF64 : forall f, P TyF64 (DF64 f) (Number (Float f)).
    Hypothesis IChar : forall c, P TyChar (DChar c) (Char c).
    Hypothesis IString : forall s, P TyString (DString s) (String s).
    Hypothesis IByteBuf : forall b, P TyByteBuf (DBytes b) (Bytes b).
    Hypothesis IUnit : P TyUnit DUnit Null.
    Hypothesis INone : forall t, P (TyOption t) DNone Null.
    Hypothesis ISome : forall t x v, P t x v -> P (TyOption t) (DSome x) (Cons v Null).
    Hypothesis ISeq : forall t l vs, Forall2 (P t) l vs -> P (TySeq t) (DSeq l) (value_list vs).
    Hypothesis ITuple : forall ts l vs, Forall3 P ts l vs -> P (TyTuple ts) (DTuple l) (Vector vs).
    Hypothesis IMap : forall kt vt l vs, Forall2 (entry_rel P kt vt) l vs -> P (TyMap kt vt) (DMap l) (value_list vs).
    Hypothesis IStruct : forall fs l vs, Forall3 (field_rel P) fs l vs -> P (TyStruct fs) (DStruct l) (value_list vs).
    Hypothesis INewtype : forall t x v, P t x v -> P (TyNewtype t) (DNewtype x) v.
    Hypothesis IEnum : forall vs name var p v, var_of name vs = Some var -> Q var name p v -> P (TyEnum vs) (DEnum name p) v.
    Hypothesis IVUnit : forall name, Q VUnit name PUnit (Symbol name).
    Hypothesis IVNewtype : forall name t x v, P t x v -> Q (VNewtype t) name (PNewtype x) (Cons (Symbol name) v).
    Hypothesis IVTuple : forall name ts l vs, Forall3 P ts l vs ->
      Q (VTuple ts) name (PTuple l) (Cons (Symbol name) (value_list vs)).
    Hypothesis IVStruct : forall name fs l vs, Forall3 (field_rel P) fs l vs ->
      Q (VStruct fs) name (PStruct l) (Cons (Symbol name) (value_list vs)).

    Definition sound (t : ty) : Prop := forall x v, ser t x = Some v -> P t x v.

    Lemma ser_seq_all t l vs : sound t -> ser_seq t l = Some vs -> Forall2 (P t) l vs.
    Proof.
      intros Ht. revert vs; induction l as [|x l IH]; intros vs H; cbn [ser_seq] in H.
      - injection H as <-. constructor.
      - destruct (ser t x) as [v|] eqn:Ex; [|discriminate]. destruct (ser_seq t l) as [vs'|]; [|discriminate].
        injection H as <-. constructor; auto.
    Qed.
    Lemma ser_tuple_all ts l vs : Forall sound ts -> ser_tuple ts l = Some vs -> Forall3 P ts l vs.
    Proof.
      intros Hts. revert l vs; induction Hts as [|t ts Ht _ IH]; intros [|x l] vs H; cbn [ser_tuple] in H; try discriminate.
      - injection H as <-. constructor.
      - destruct (ser t x) as [v|] eqn:Ex; [|discriminate]. destruct (ser_tuple ts l) as [vs'|] eqn:El; [|discriminate].
        injection H as <-. constructor; auto.
    Qed.
    Lemma ser_map_all kt vt l vs : sound kt -> sound vt -> ser_map kt vt l = Some vs -> Forall2 (entry_rel P kt vt) l vs.
    Proof.
      intros Hk Hv. revert vs; induction l as [|[k x] l IH]; intros vs H; cbn [ser_map] in H.
      - injection H as <-. constructor.
      - destruct (ser kt k) as [kv|] eqn:Ek; [|discriminate]. destruct (ser vt x) as [xv|] eqn:Ex; [|discriminate].
        destruct (ser_map kt vt l) as [vs'|]; [|discriminate]. injection H as <-.
        constructor; [exists kv, xv; auto|auto].
    Qed.
    Lemma ser_fields_all fs l vs : Forall (fun f => sound (snd f)) fs -> ser_fields fs l = Some vs ->
      Forall3 (field_rel P) fs l vs.
    Proof.
      intros Hfs. revert l vs; induction Hfs as [|[n t] fs Ht _ IH]; intros [|x l] vs H; cbn [ser_fields] in H; try discriminate.
      - injection H as <-. constructor.
      - destruct (ser t x) as [v|] eqn:Ex; [|discriminate]. destruct (ser_fields fs l) as [vs'|] eqn:El; [|discriminate].
        injection H as <-. constructor; [exists v; auto|auto].
    Qed.

    Theorem ser_ind : forall t, sound t.
    Proof.
      apply (ty_ind' sound (fun var => forall name p v, ser_variant name var p = Some v -> Q var name p v));
        unfold sound.
      (* bool, f64, char, string, bytes, unit *)
      1, 4-8: intros [] v H; try discriminate; injection H as <-; auto.
      - (* int *) intros s b [] v H; try discriminate. cbn [SerdeModel.ser] in H.
        destruct (int_in_range s b z) eqn:Er; [|discriminate]. injection H as <-. auto.
      - (* f32 *) intros [] v H; try discriminate. cbn [SerdeModel.ser] in H.
        destruct (is_f32 f) eqn:Ef; [|discriminate]. injection H as <-. auto.
      - (* option *) intros t Ht [] v H; try discriminate; cbn [SerdeModel.ser] in H.
        + injection H as <-. auto.
        + destruct (ser t d) as [w|] eqn:E; [|discriminate]. injection H as <-. auto.
      - (* seq *) intros t Ht [] v H; try discriminate. rewrite ser_seq_eq in H.
        destruct (ser_seq t l) as [vs|] eqn:E; [|discriminate]. injection H as <-. eauto using ser_seq_all.
      - (* tuple *) intros ts Hts [] v H; try discriminate. rewrite ser_tuple_eq in H.
        destruct (ser_tuple ts l) as [vs|] eqn:E; [|discriminate]. injection H as <-. eauto using ser_tuple_all.
      - (* map *) intros kt vt Hk Hv [] v H; try discriminate. rewrite ser_map_eq in H.
        destruct (ser_map kt vt l) as [vs|] eqn:E; [|discriminate]. injection H as <-. eauto using ser_map_all.
      - (* struct *) intros fs Hfs [] v H; try discriminate. rewrite ser_struct_eq in H.
        destruct (ser_fields fs l) as [vs|] eqn:E; [|discriminate]. injection H as <-. eauto using ser_fields_all.
      - (* newtype *) intros t Ht [] v H; try discriminate. cbn [SerdeModel.ser] in H. auto.
      - (* enum *) intros vs Hvs [] v H; try discriminate. rewrite ser_enum_eq, ser_find_var in H.
        destruct (var_of name vs) as [var|] eqn:E; [|discriminate]. apply (IEnum vs name var p v E).
        exact (proj1 (Forall_forall _ _) Hvs _ (var_of_In _ _ _ E) name p v H).
      - intros name [] v H; try discriminate. injection H as <-. auto.
      - intros t Ht name [] v H; try discriminate. cbn [ser_variant] in H.
        destruct (ser t d) as [w|] eqn:E; [|discriminate]. injection H as <-. auto.
      - intros ts Hts name [] v H; try discriminate. cbn [ser_variant] in H.
        destruct (ser_tuple ts l) as [vs|] eqn:E; [|discriminate]. injection H as <-. eauto using ser_tuple_all.
      - intros fs Hfs name [] v H; try discriminate. cbn [ser_variant] in H.
        destruct (ser_fields fs l) as [vs|] eqn:E; [|discriminate]. injection H as <-. eauto using ser_fields_all.
    Qed.
  End ser_ind.

  (* well-formed types: field names of every struct (variant) are distinct *)
  Definition names (fs : list (bytes * ty)) : list bytes := map fst fs.

  Fixpoint wf_ty (t : ty) : Prop :=
    match t with
    | TyOption t' | TySeq t' | TyNewtype t' => wf_ty t'
    | TyTuple ts => (fix go (l : list ty) : Prop := match l with [] => True | x :: l' => wf_ty x /\ go l' end) ts
    | TyMap k v => wf_ty k /\ wf_ty v
    | TyStruct fs =>
        NoDup (names fs) /\
        (fix go (l : list (bytes * ty)) : Prop := match l with [] => True | f :: l' => wf_ty (snd f) /\ go l' end) fs
    | TyEnum vs =>
        (fix go (l : list (bytes * variant)) : Prop := match l with [] => True | v :: l' => wf_var (snd v) /\ go l' end) vs
    | _ => True
    end
  with wf_var (v : variant) : Prop :=
    match v with
    | VUnit => True
    | VNewtype t => wf_ty t
    | VTuple ts => (fix go (l : list ty) : Prop := match l with [] => True | x :: l' => wf_ty x /\ go l' end) ts
    | VStruct fs =>
        NoDup (names fs) /\
        (fix go (l : list (bytes * ty)) : Prop := match l with [] => True | f :: l' => wf_ty (snd f) /\ go l' end) fs
    end.

  (* the conjunctions wf_ty spells out over its nested lists *)
  Definition wf_all : list ty -> Prop :=
    fix go (l : list ty) : Prop := match l with [] => True | x :: l' => wf_ty x /\ go l' end.
  Definition wf_fields : list (bytes * ty) -> Prop :=
    fix go (l : list (bytes * ty)) : Prop := match l with [] => True | f :: l' => wf_ty (snd f) /\ go l' end.
  Lemma wf_var_of name vs var : var_of name vs = Some var -> wf_ty (TyEnum vs) -> wf_var var.
  Proof.
    cbn [wf_ty]. induction vs as [|[n var'] vs IH]; cbn [var_of]; [discriminate|]. intros H [Hw1 Hw2].
    destruct (beq_bytes n name); [injection H as <-; exact Hw1|auto].
  Qed.

  Definition rt (t : ty) (d : data) (v : value) : Prop := wf_ty t -> de t v = SOk d.
  Definition rt_var (var : variant) (name : bytes) (p : payload) (v : value) : Prop :=
    wf_var var -> forall vs, var_of name vs = Some var -> de (TyEnum vs) v = SOk (DEnum name p).

  Lemma rt_seq t l vs : wf_ty t -> Forall2 (rt t) l vs -> de_seq t vs = SOk l.
  Proof.
    intros Hw. induction 1 as [|x v l vs Hx _ IH]; cbn [de_seq]; [reflexivity|].
    rewrite (Hx Hw). cbn [sbind]. now rewrite IH.
  Qed.

  Lemma rt_tuple ts l vs : Forall3 rt ts l vs -> wf_all ts -> de_tuple ts vs = SOk l.
  Proof.
    induction 1 as [|t x v ts l vs Hx _ IH]; intros Hw; cbn [de_tuple]; [reflexivity|]. destruct Hw as [Hw1 Hw2].
    rewrite (Hx Hw1). cbn [sbind]. now rewrite (IH Hw2).
  Qed.

  Lemma rt_map kt vt l vs : wf_ty kt -> wf_ty vt -> Forall2 (entry_rel rt kt vt) l vs ->
    exists es, entries_of vs = Some es /\ de_map kt vt es = SOk l.
  Proof.
    intros Hk Hv. induction 1 as [|[k x] w l vs (kv & xv & -> & Hkv & Hxv) _ (es & He & Hd)].
    - exists []. split; reflexivity.
    - exists ((kv, xv) :: es). cbn [entries_of entry_of de_map fst snd] in *.
      rewrite He, (Hkv Hk), (Hxv Hv). cbn [sbind]. rewrite Hd. split; reflexivity.
  Qed.

  Lemma fields_entries R fs l vs : Forall3 (field_rel R) fs l vs ->
    exists es, entries_of vs = Some es /\ forallb key_is_symbol es = true /\
               map fst es = map (fun n => Symbol n) (names fs).
  Proof.
    induction 1 as [|[n t] x w fs l vs (v & -> & _) _ (es & He & Hs & Hn)].
    - exists []. repeat split.
    - exists ((Symbol n, v) :: es). cbn [entries_of entry_of]. rewrite He. cbn. rewrite Hn. auto.
  Qed.
  Lemma fields_names R fs l vs n v : Forall3 (field_rel R) fs l vs -> In (Cons (Symbol n) v) vs -> In n (names fs).
  Proof.
    induction 1 as [|[n1 t1] x w fs l vs (v1 & -> & _) _ IH]; intros Hv; [destruct Hv|].
    destruct Hv as [Hv|Hv]; [injection Hv as -> _; left; reflexivity|right; auto].
  Qed.

  Lemma entries_for_absent n es : ~ In (Symbol n) (map fst es) -> entries_for n es = [].
  Proof.
    induction es as [|[k x] es IH]; intros H; [reflexivity|].
    cbn [entries_for]. cbn in H.
    destruct k; try (apply IH; intros Hi; apply H; right; exact Hi).
    destruct (beq_bytes s n) eqn:E.
    - apply beq_bytes_eq in E. subst. exfalso. apply H. left. reflexivity.
    - apply IH. intros Hi. apply H. right. exact Hi.
  Qed.

  Lemma entries_for_self R fs l vs : Forall3 (field_rel R) fs l vs -> forall es,
    entries_of vs = Some es -> NoDup (names fs) ->
    forall n v, In (Cons (Symbol n) v) vs -> entries_for n es = [v].
  Proof.
    induction 1 as [|[n1 t1] x1 w fs l vs (v1 & -> & _) Hrest IH]; intros es He Hnd n v Hv; [destruct Hv|].
    destruct (fields_entries R _ _ _ Hrest) as (es' & He' & _ & Hn').
    cbn [entries_of entry_of] in He. rewrite He' in He. injection He as <-.
    inversion Hnd as [|? ? Hnotin Hnd']; subst. cbn [entries_for]. destruct Hv as [Hv|Hv].
    - injection Hv as -> ->. rewrite beq_bytes_refl, entries_for_absent; [reflexivity|].
      rewrite Hn'. intros Hi. apply in_map_iff in Hi. destruct Hi as (m & [= ->] & Hin'). exact (Hnotin Hin').
    - pose proof (fields_names R _ _ _ _ _ Hrest Hv) as Hn.
      destruct (beq_bytes n1 n) eqn:E; [apply beq_bytes_eq in E; subst; contradiction|].
      exact (IH es' He' Hnd' n v Hv).
  Qed.

  Lemma rt_fields_aux fs l vs es_all : Forall3 (field_rel rt) fs l vs -> wf_fields fs ->
    (forall n v, In (Cons (Symbol n) v) vs -> entries_for n es_all = [v]) ->
    de_fields es_all fs = SOk l.
  Proof.
    induction 1 as [|[n t] x w fs l vs (v & -> & Hx) _ IH]; intros Hw Hlook; cbn [de_fields]; [reflexivity|].
    destruct Hw as [Hw1 Hw2]. cbn [fst snd] in *. rewrite (Hlook n v (or_introl eq_refl)), (Hx Hw1). cbn [sbind].
    rewrite IH; [reflexivity|exact Hw2|]. intros n' v' Hv. apply Hlook. right. exact Hv.
  Qed.

  Lemma rt_fields fs l vs : Forall3 (field_rel rt) fs l vs -> wf_fields fs -> NoDup (names fs) ->
    exists es, entries_of vs = Some es /\ forallb key_is_symbol es = true /\ de_fields es fs = SOk l.
  Proof.
    intros H Hw Hnd. destruct (fields_entries rt _ _ _ H) as (es & He & Hs & _).
    exists es. split; [exact He|]. split; [exact Hs|].
    exact (rt_fields_aux fs l vs es H Hw (entries_for_self rt fs l vs H es He Hnd)).
  Qed.

  Lemma int_rt s bits z : int_in_range s bits z = true ->
    de (TyInt s bits) (ser_int s bits z) = SOk (DInt z).
  Proof.
    intros Hr. unfold ser_int. cbn [SerdeModel.de].
    destruct (s || negb (bits =? 64)) eqn:E.
    - unfold num_from_signed. destruct (0 <=? z)%Z eqn:Ez; cbn [de_int].
      + rewrite Z2N.id by lia. now rewrite Hr.
      + now rewrite Hr.
    - unfold num_from_unsigned. cbn [de_int].
      assert (s = false) by (destruct s; [discriminate|reflexivity]). subst s.
      unfold int_in_range in Hr. rewrite Z2N.id by lia. unfold int_in_range. now rewrite Hr.
  Qed.

  Theorem roundtrip : forall t, wf_ty t -> forall d v, ser t d = Some v -> de t v = SOk d.
  Proof.
    intros t Hw d v H. revert Hw. change (rt t d v). revert t d v H.
    apply (ser_ind rt rt_var); unfold rt, rt_var.
    (* bool, f64, char, string, bytes, unit, none *)
    1, 4-9: reflexivity.
    - (* int *) intros s b z Hr _. now apply int_rt.
    - (* f32 *) intros f Hf _. cbn. now rewrite cast_id.
    - (* some *) intros t x v IH Hw. cbn [SerdeModel.de]. now rewrite (IH Hw).
    - (* seq *) intros t l vs Hall Hw. rewrite de_seq_eq, seq_access_list. cbn [sbind]. now rewrite (rt_seq t l vs Hw Hall).
    - (* tuple *) intros ts l vs Hall Hw. rewrite de_tuple_eq. cbn [tuple_access].
      rewrite <- (Forall3_length _ _ _ _ Hall), firstn_all. cbn [sbind]. now rewrite (rt_tuple ts l vs Hall Hw).
    - (* map *) intros kt vt l vs Hall [Hk Hv]. destruct (rt_map kt vt l vs Hk Hv Hall) as (es & He & Hd).
      rewrite de_map_eq, (map_access_list _ _ He). cbn [sbind]. now rewrite Hd.
    - (* struct *) intros fs l vs Hall [Hnd Hw]. destruct (rt_fields fs l vs Hall Hw Hnd) as (es & He & Hs & Hd).
      rewrite de_struct_eq, (map_access_list _ _ He). cbn [sbind]. rewrite Hs. now rewrite Hd.
    - (* newtype *) intros t x v IH Hw. cbn [SerdeModel.de]. now rewrite (IH Hw).
    - (* enum *) intros vs name var p v Hvar HQ Hw. exact (HQ (wf_var_of name vs var Hvar Hw) vs Hvar).
    - intros name _ vs Hvar. rewrite de_enum_symbol, de_unit_find_var, Hvar. reflexivity.
    - intros name t x v IH Hw vs Hvar. rewrite de_enum_cons, de_cons_find_var, Hvar. cbn [de_variant]. now rewrite (IH Hw).
    - intros name ts l vs Hall Hw vs' Hvar. rewrite de_enum_cons, de_cons_find_var, Hvar. cbn [de_variant].
      rewrite seq_access_list. cbn [sbind]. now rewrite (rt_tuple ts l vs Hall Hw).
    - intros name fs l vs Hall [Hnd Hw] vs' Hvar. rewrite de_enum_cons, de_cons_find_var, Hvar. cbn [de_variant].
      destruct (rt_fields fs l vs Hall Hw Hnd) as (es & He & Hs & Hd).
      rewrite (map_access_list _ _ He). cbn [sbind]. rewrite Hs. now rewrite Hd.
  Qed.

  Hypothesis cast_is_f32 : forall f, is_f32 (cast_f32 f) = true.

  Definition typed (t : ty) : Prop := forall v d, de t v = SOk d -> exists v', ser t d = Some v'.

  Ltac sb H x E := match type of H with sbind ?m _ = _ => destruct m as [x|[]] eqn:E; cbn [sbind] in H; [|discriminate] end.

  Lemma typed_seq t vs ds : typed t -> de_seq t vs = SOk ds -> exists vs', ser_seq t ds = Some vs'.
  Proof.
    intros Ht. revert ds; induction vs as [|x vs IH]; intros ds H; cbn [de_seq] in H.
    - inversion H; subst. exists []. reflexivity.
    - sb H d E1. sb H r E2. inversion H; subst.
      destruct (Ht _ _ E1) as [v' Hv]. destruct (IH _ eq_refl) as [vs' Hvs].
      exists (v' :: vs'). cbn [ser_seq]. now rewrite Hv, Hvs.
  Qed.
  Lemma typed_tuple ts els ds : Forall typed ts -> de_tuple ts els = SOk ds -> exists vs', ser_tuple ts ds = Some vs'.
  Proof.
    intros Hts. revert els ds; induction Hts as [|t ts Ht Hts IH]; intros els ds H; cbn [de_tuple] in H.
    - inversion H; subst. exists []. reflexivity.
    - destruct els as [|x els]; [discriminate|]. sb H d E1. sb H r E2. inversion H; subst.
      destruct (Ht _ _ E1) as [v' Hv]. destruct (IH _ _ E2) as [vs' Hvs].
      exists (v' :: vs'). cbn [ser_tuple]. now rewrite Hv, Hvs.
  Qed.
  Lemma typed_map kt vt es ds : typed kt -> typed vt -> de_map kt vt es = SOk ds -> exists vs', ser_map kt vt ds = Some vs'.
  Proof.
    intros Hk Hv. revert ds; induction es as [|[k x] es IH]; intros ds H; cbn [de_map] in H.
    - inversion H; subst. exists []. reflexivity.
    - sb H dk E1. sb H dx E2. sb H r E3. inversion H; subst.
      destruct (Hk _ _ E1) as [kv Hkv]. destruct (Hv _ _ E2) as [xv Hxv]. destruct (IH _ eq_refl) as [vs' Hvs].
      exists (Cons kv xv :: vs'). cbn [ser_map]. now rewrite Hkv, Hxv, Hvs.
  Qed.
  Lemma typed_fields es fs ds : Forall (fun f => typed (snd f)) fs -> de_fields es fs = SOk ds ->
    exists vs', ser_fields fs ds = Some vs'.
  Proof.
    intros Hfs. revert ds; induction Hfs as [|[n t] fs Ht Hfs IH]; intros ds H; cbn [de_fields] in H.
    - inversion H; subst. exists []. reflexivity.
    - sb H d E1. sb H r E2. inversion H; subst.
      destruct (IH _ eq_refl) as [vs' Hvs].
      assert (Hd : exists v', ser t d = Some v').
      { destruct (entries_for n es) as [|x [|y rest]]; try discriminate.
        - destruct t; try discriminate. inversion E1; subst. exists Null. reflexivity.
        - exact (Ht _ _ E1). }
      destruct Hd as [v' Hv]. exists (Cons (Symbol n) v' :: vs'). cbn [ser_fields]. now rewrite Hv, Hvs.
  Qed.

  Definition typed_var (var : variant) : Prop :=
    forall name rest d, de_variant name rest var = SOk d ->
      exists p, d = DEnum name p /\ exists v', ser_variant name var p = Some v'.

  Lemma typed_find vs v d : Forall (fun x => typed_var (snd x)) vs ->
    de (TyEnum vs) v = SOk d -> exists v', ser (TyEnum vs) d = Some v'.
  Proof.
    intros Hvs H. destruct v; try discriminate.
    - rewrite de_enum_symbol, de_unit_find_var in H. destruct (var_of s vs) as [[]|] eqn:E; try discriminate.
      injection H as <-. exists (Symbol s). now rewrite ser_enum_eq, ser_find_var, E.
    - destruct v1; try discriminate. rewrite de_enum_cons, de_cons_find_var in H.
      destruct (var_of s vs) as [var|] eqn:E; [|discriminate].
      destruct (proj1 (Forall_forall _ _) Hvs _ (var_of_In _ _ _ E) _ _ _ H) as (p & -> & v' & Hs).
      exists v'. now rewrite ser_enum_eq, ser_find_var, E.
  Qed.

  Theorem de_typed : forall t, typed t.
  Proof.
    apply (ty_ind' typed typed_var); unfold typed; intros.
    (* bool, f64, char, string, bytes, unit *)
    1, 4-8: destruct v; try discriminate; inversion H; subst; eexists; reflexivity.
    - (* int *) destruct v; try discriminate. cbn [SerdeModel.de] in H.
      destruct n as [u|i|f]; cbn [de_int] in H; try discriminate.
      + destruct (int_in_range s b (Z.of_N u)) eqn:E; [|discriminate]. inversion H; subst.
        cbn [SerdeModel.ser]. rewrite E. eexists; reflexivity.
      + destruct (int_in_range s b i) eqn:E; [|discriminate]. inversion H; subst.
        cbn [SerdeModel.ser]. rewrite E. eexists; reflexivity.
    - (* f32 *) destruct v; try discriminate. inversion H; subst. cbn [SerdeModel.ser]. rewrite cast_is_f32. eexists; reflexivity.
    - (* option *)
      destruct v; try discriminate; cbn [SerdeModel.de] in H0.
      + inversion H0; subst. eexists; reflexivity.
      + destruct v2; try discriminate. sb H0 x E. inversion H0; subst.
        destruct (H _ _ E) as [w Hw]. cbn [SerdeModel.ser]. rewrite Hw. eexists; reflexivity.
    - (* seq *)
      rewrite de_seq_eq in H0. sb H0 els E1. sb H0 ds E2. inversion H0; subst.
      destruct (typed_seq _ _ _ H E2) as [vs' Hvs]. rewrite ser_seq_eq, Hvs. eexists; reflexivity.
    - (* tuple *)
      rewrite de_tuple_eq in H0. sb H0 els E1. sb H0 ds E2. inversion H0; subst.
      destruct (typed_tuple _ _ _ H E2) as [vs' Hvs]. rewrite ser_tuple_eq, Hvs. eexists; reflexivity.
    - (* map *)
      rewrite de_map_eq in H1. sb H1 es E1. sb H1 ds E2. inversion H1; subst.
      destruct (typed_map _ _ _ _ H H0 E2) as [vs' Hvs]. rewrite ser_map_eq, Hvs. eexists; reflexivity.
    - (* struct *)
      rewrite de_struct_eq in H0. sb H0 es E1. destruct (forallb key_is_symbol es); [|discriminate].
      sb H0 ds E2. inversion H0; subst.
      destruct (typed_fields _ _ _ H E2) as [vs' Hvs]. rewrite ser_struct_eq, Hvs. eexists; reflexivity.
    - (* newtype *)
      cbn [SerdeModel.de] in H0. sb H0 x E. inversion H0; subst.
      destruct (H _ _ E) as [w Hw]. cbn [SerdeModel.ser]. rewrite Hw. eexists; reflexivity.
    - (* enum *) eapply typed_find; eauto.
    - unfold typed_var. intros name rest d Hd. cbn [de_variant] in Hd. inversion Hd; subst.
      exists PUnit. split; [reflexivity|]. eexists; reflexivity.
    - unfold typed_var. intros name rest d Hd. cbn [de_variant] in Hd. sb Hd x E. inversion Hd; subst.
      destruct (H _ _ E) as [w Hw]. exists (PNewtype x). split; [reflexivity|]. cbn [ser_variant]. rewrite Hw. eexists; reflexivity.
    - unfold typed_var. intros name rest d Hd. cbn [de_variant] in Hd. sb Hd els E1. sb Hd ds E2. inversion Hd; subst.
      destruct (typed_tuple _ _ _ H E2) as [vs' Hvs]. exists (PTuple ds). split; [reflexivity|].
      cbn [ser_variant]. rewrite Hvs. eexists; reflexivity.
    - unfold typed_var. intros name rest d Hd. cbn [de_variant] in Hd. sb Hd es E1.
      destruct (forallb key_is_symbol es); [|discriminate]. sb Hd ds E2. inversion Hd; subst.
      destruct (typed_fields _ _ _ H E2) as [vs' Hvs]. exists (PStruct ds). split; [reflexivity|].
      cbn [ser_variant]. rewrite Hvs. eexists; reflexivity.
  Qed.

  (* C18: accepted alternative encodings are normalised, not misread *)
  Theorem normalise t v d : wf_ty t -> de t v = SOk d ->
    exists v', ser t d = Some v' /\ de t v' = SOk d.
  Proof.
    intros Hw H. destruct (de_typed t v d H) as [v' Hv']. exists v'. split; [exact Hv'|].
    exact (roundtrip t Hw d v' Hv').
  Qed.

  (* C14: the documented shapes *)
  Lemma int_value_ser s bits z : int_in_range s bits z = true -> (bits <= 64)%N ->
    int_value (ser_int s bits z) = Some z.
  Proof.
    intros Hr Hb. unfold ser_int. destruct (s || negb (bits =? 64)) eqn:E.
    - cbn [int_value]. unfold num_from_signed. destruct (0 <=? z)%Z eqn:Ez; cbn; [f_equal; lia|reflexivity].
    - assert (s = false) by (destruct s; [discriminate|reflexivity]). subst.
      unfold int_in_range in Hr. cbn. f_equal. lia.
  Qed.

  Lemma is_list_value_list vs : is_list (value_list vs) = true.
  Proof. unfold value_list. rewrite ListProofs.is_list_build; reflexivity. Qed.

  Lemma shapes :
    ser TyUnit DUnit = Some Null /\
    (forall t, ser (TyOption t) DNone = Some Null) /\
    (forall t x, ser (TyOption t) (DSome x) = option_map (fun v => vlist [v]) (ser t x)) /\
    (forall t l, ser (TySeq t) (DSeq l) = option_map value_list (ser_seq t l)) /\
    (forall ts l, ser (TyTuple ts) (DTuple l) = option_map Vector (ser_tuple ts l)) /\
    (forall kt vt l, ser (TyMap kt vt) (DMap l) = option_map value_list (ser_map kt vt l)) /\
    (forall fs l, ser (TyStruct fs) (DStruct l) = option_map value_list (ser_fields fs l)) /\
    (forall t x, ser (TyNewtype t) (DNewtype x) = ser t x) /\
    (forall b, ser TyByteBuf (DBytes b) = Some (Bytes b)) /\
    (forall c, ser TyChar (DChar c) = Some (Char c)) /\
    (forall s, ser TyString (DString s) = Some (String s)) /\
    (forall b, ser TyBool (DBool b) = Some (Bool b)).
  Proof.
    repeat split; intros; try reflexivity;
      rewrite ?ser_seq_eq, ?ser_tuple_eq, ?ser_map_eq, ?ser_struct_eq; cbn [SerdeModel.ser];
      match goal with |- context [match ?x with _ => _ end] => destruct x end; reflexivity.
  Qed.

  Lemma map_entries_shape kt vt l vs : ser_map kt vt l = Some vs ->
    Forall2 (fun e kv => exists k v, ser kt (fst kv) = Some k /\ ser vt (snd kv) = Some v /\ e = Cons k v) vs l.
  Proof.
    intros H. pose proof (ser_map_all (fun t x v => ser t x = Some v) kt vt l vs (fun _ _ E => E) (fun _ _ E => E) H) as Hall.
    clear H. induction Hall as [|e w l vs (k & v & -> & Hk & Hv) _ IH]; constructor; eauto.
  Qed.
  Lemma struct_entries_shape fs l vs : ser_fields fs l = Some vs ->
    Forall2 (fun e f => exists v, e = Cons (Symbol (fst f)) v) vs fs.
  Proof.
    intros H. assert (Hfs : Forall (fun f => sound (fun _ _ _ => True) (snd f)) fs) by (apply Forall_forall; intros f _ x v _; exact I).
    pose proof (ser_fields_all _ fs l vs Hfs H) as Hall.
    clear H Hfs. induction Hall as [|f x w fs l vs (v & -> & _) _ IH]; constructor; eauto.
  Qed.

  Lemma variant_shapes name :
    ser_variant name VUnit PUnit = Some (Symbol name) /\
    (forall t x, ser_variant name (VNewtype t) (PNewtype x) = option_map (fun v => Cons (Symbol name) v) (ser t x)) /\
    (forall ts l, ser_variant name (VTuple ts) (PTuple l) =
                  option_map (fun vs => vlist (Symbol name :: vs)) (ser_tuple ts l)) /\
    (forall fs l, ser_variant name (VStruct fs) (PStruct l) =
                  option_map (fun vs => vlist (Symbol name :: vs)) (ser_fields fs l)).
  Proof.
    repeat split; intros; cbn [ser_variant]; try reflexivity;
      match goal with |- context [match ?x with _ => _ end] => destruct x end; reflexivity.
  Qed.

  Lemma accept_alternatives :
    (forall t vs, de (TySeq t) (Vector vs) = de (TySeq t) (value_list vs)) /\
    (forall ts vs, length vs = length ts -> vs <> [] -> de (TyTuple ts) (value_list vs) = de (TyTuple ts) (Vector vs)).
  Proof.
    split; intros.
    - rewrite !de_seq_eq, seq_access_list. reflexivity.
    - rewrite !de_tuple_eq. destruct vs as [|v vs]; [congruence|].
      unfold value_list. cbn [build tuple_access]. rewrite list_elems_build. cbn [sbind]. rewrite <- H.
      change (S (length vs)) with (length (v :: vs)). now rewrite firstn_all.
  Qed.

  Definition improper_or_wrong (v : value) : Prop :=
    match v with
    | Null | Vector _ => False
    | Cons a d => exists e, list_elems a d = SErr e
    | _ => True
    end.
  Lemma access_improper v : improper_or_wrong v ->
    seq_access true v = SErr SData /\ forall n, tuple_access n v = SErr SData.
  Proof.
    intros H. destruct v; cbn [seq_access tuple_access improper_or_wrong] in *; try contradiction; try (split; reflexivity).
    destruct H as [[] ->]. split; reflexivity.
  Qed.
  Lemma reject_seq t v : improper_or_wrong v -> de (TySeq t) v = SErr SData.
  Proof. intros H. rewrite de_seq_eq, (proj1 (access_improper v H)). reflexivity. Qed.
  Lemma reject_tuple ts v : improper_or_wrong v -> de (TyTuple ts) v = SErr SData.
  Proof. intros H. rewrite de_tuple_eq, (proj2 (access_improper v H)). reflexivity. Qed.

  Lemma list_elems_improper a xs t : is_cons t = false -> is_null t = false -> list_elems a (build xs t) = SErr SData.
  Proof.
    revert a; induction xs as [|x xs IH]; intros a Hc Hn; cbn [build list_elems].
    - destruct t; try discriminate; reflexivity.
    - now rewrite IH.
  Qed.

End Roundtrip.
