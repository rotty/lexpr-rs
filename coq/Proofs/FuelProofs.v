(* Fuel sufficiency (C03 totality, C12 termination): the fuel handed out by
   fuel_for is enough for every input, so the model's own "out of fuel"
   outcome never occurs. The measure is the number of events still to be
   delivered, [rem]: every loop of the model spends one unit of fuel per
   iteration and every iteration that continues consumes at least one event,
   so a loop entered with [rem r < fuel] cannot exhaust its fuel. [ok n m]:
   from every reader with at most n events left, m does not run out of fuel
   and leaves no more events than it found. *)
From Coq Require Import SpecFloat Lia ZifyBool ZifyNat ZifyN.
Require Import Base Value Float PrintOptions ParseOptions Utf8 Reader Scan Num NumberOps Parser.
Require Import DepthProofs RelFramework PositionProofs SpanProofs.

Definition rem (r : reader) : nat := length (rinput r).

Definition Rrem (r : reader) (x : option perr) (r' : reader) : Prop := (rem r' <= rem r)%nat.

Lemma Rrem_ret r : Rrem r None r.  Proof. unfold Rrem. lia. Qed.
Lemma Rrem_seq r r1 x r2 : Rrem r None r1 -> Rrem r1 x r2 -> Rrem r x r2.
Proof. unfold Rrem. lia. Qed.
Lemma Rrem_fuel r : Rrem r (Some EFuel) r.  Proof. unfold Rrem. lia. Qed.
Lemma Rrem_rec1 r e r1 x r2 : Rrem r (Some e) r1 -> Rrem r1 x r2 -> Rrem r (Some e) r2.
Proof. unfold Rrem. lia. Qed.
Lemma Rrem_rec2 r e r1 e' r2 : Rrem r (Some e) r1 -> Rrem r1 (Some e') r2 -> Rrem r (Some e') r2.
Proof. unfold Rrem. lia. Qed.

Lemma skip_intr_len l : (length (skip_intr l) <= length l)%nat.
Proof. induction l as [|[b| |e] l IH]; cbn [skip_intr length]; lia. Qed.

Lemma consume_rem r b l : rem (consume r b l) = length l.
Proof. unfold consume, rem. destruct (advance (rline r) (rcol r) b). reflexivity. Qed.

Lemma discard_rem r : (rem (r_discard r) <= rem r)%nat.
Proof.
  unfold r_discard. destruct (rk r); try destruct (rpending r); try lia;
    destruct (rinput r) as [|[b| |e] l] eqn:E; try lia; rewrite consume_rem; unfold rem; rewrite E; cbn [length]; lia.
Qed.

Lemma advance_over_rem r bs rest : rem (advance_over r bs rest) = length rest.
Proof. unfold advance_over, rem. destruct (fold_left _ bs (rline r, rcol r)). reflexivity. Qed.

Lemma span_plain_len l : forall acc, (length (snd (span_plain l acc)) <= length l)%nat.
Proof.
  induction l as [|[b| |e] l IH]; intros acc; cbn [span_plain snd length]; try lia.
  destruct ((b =? 92) || (b =? 34)); cbn [snd length]; [lia|]. specialize (IH (acc ++ [b])). lia.
Qed.
Lemma span_symbol_lens l : forall acc, (length (fst (span_symbol l acc)) + length (snd (span_symbol l acc)) = length acc + length l)%nat.
Proof.
  induction l as [|[b| |e] l IH]; intros acc; cbn [span_symbol fst snd length]; try lia.
  destruct (is_symbol_terminator b); cbn [fst snd length]; [lia|]. rewrite IH, app_length. cbn [length]. lia.
Qed.
Lemma span_symbol_len l acc : (length (snd (span_symbol l acc)) <= length l)%nat.
Proof. pose proof (span_symbol_lens l acc) as H. pose proof (span_symbol_bytes l acc) as (more & E & _). rewrite E, app_length in H. lia. Qed.

Lemma peek_cases r :
  match r_peek r with
  | (Ok (Some b), r') => at_byte b r' /\ (rem r' <= rem r)%nat
  | (Ok None, r') => (rem r' <= rem r)%nat
  | (Err e, r') => e <> EFuel /\ (rem r' <= rem r)%nat
  end.
Proof.
  unfold r_peek. destruct (rpending r) eqn:Hp.
  - destruct (rinput r) as [|[b| |e] l] eqn:Hl; try lia. split; [|lia]. split; [exact Hp|exists l; exact Hl].
  - pose proof (skip_intr_len (rinput r)) as H. unfold rem at 2 4 6.
    destruct (skip_intr (rinput r)) as [|[b| |e] l]; unfold rem; cbn [rinput length] in *; try lia.
    + split; [|lia]. split; [reflexivity|exists l; reflexivity].
    + split; [discriminate|lia].
Qed.
Lemma next_cases r :
  match r_next r with
  | (Ok (Some b), r') => (rem r' < rem r)%nat
  | (Ok None, r') => (rem r' <= rem r)%nat
  | (Err e, r') => e <> EFuel /\ (rem r' <= rem r)%nat
  end.
Proof.
  unfold r_next.
  assert (H : (length (if rpending r then rinput r else skip_intr (rinput r)) <= rem r)%nat).
  { destruct (rpending r); [unfold rem; lia|apply skip_intr_len]. }
  destruct (if rpending r then rinput r else skip_intr (rinput r)) as [|[b| |e] l]; cbn [fst snd length] in *;
    rewrite ?consume_rem; unfold rem in *; cbn [rinput length]; try lia. split; [discriminate|lia].
Qed.
Lemma rem_peek : sat Rrem peek.
Proof. intros r. pose proof (peek_cases r) as H. unfold peek, R, Rrem. destruct (r_peek r) as [[[b|]|e] r1]; cbn [fst snd]; lia. Qed.
Lemma rem_next : sat Rrem next_char.
Proof. intros r. pose proof (next_cases r) as H. unfold next_char, R, Rrem. destruct (r_next r) as [[[b|]|e] r1]; cbn [fst snd]; lia. Qed.
Lemma rem_eat : sat Rrem eat_char.
Proof. intros r. unfold eat_char, R, Rrem. cbn [fst snd]. apply discard_rem. Qed.
Lemma rem_error A c : sat Rrem (@error A c).
Proof. intros r. unfold error, R, Rrem. destruct (r_position r). cbn [fst snd]. lia. Qed.
Lemma rem_peek_error A c : sat Rrem (@peek_error A c).
Proof. intros r. unfold peek_error, R, Rrem. destruct (r_peek_position r). cbn [fst snd]. lia. Qed.
Lemma rem_error_consume A c : sat Rrem (@error_consume A c).
Proof. intros r. unfold error_consume, peek_error, R, Rrem. destruct (r_peek_position r). cbn [fst snd]. apply discard_rem. Qed.
Lemma rem_take_run : sat Rrem take_run.
Proof.
  intros r. unfold take_run, R, Rrem. pose proof (span_plain_len (rinput r) []) as H.
  destruct (span_plain (rinput r) []) as [run rest]. cbn [snd] in H.
  destruct rest as [|[b| |e] rest']; cbn [fst snd]; rewrite ?consume_rem, ?advance_over_rem; unfold rem; cbn [length] in *; lia.
Qed.
Lemma rem_take_symbol : sat Rrem take_symbol_run.
Proof.
  intros r. unfold take_symbol_run, R, Rrem. pose proof (span_symbol_len (rinput r) []) as H.
  destruct (span_symbol (rinput r) []) as [run rest]. cbn [fst snd] in *. rewrite advance_over_rem. unfold rem. lia.
Qed.

Definition rem_lt (r r' : reader) : Prop := (rem r' < rem r)%nat.
Lemma rem_lt_then r r1 r2 : rem_lt r r1 -> Rrem r1 None r2 -> rem_lt r r2.
Proof. unfold rem_lt, Rrem. lia. Qed.

Lemma discard_at b r : at_byte b r -> S (rem (r_discard r)) = rem r.
Proof.
  intros [Hp [l Hl]]. unfold r_discard. rewrite Hp, Hl. destruct (rk r); rewrite consume_rem; unfold rem; rewrite Hl; reflexivity.
Qed.
Lemma rem_lt_eat b : strict rem_lt b eat_char.
Proof. intros r H. unfold eat_char, rem_lt. pose proof (discard_at b r H). lia. Qed.
Lemma rem_lt_next b : strict rem_lt b next_char.
Proof.
  intros r [Hp [l Hl]]. unfold next_char, r_next, rem_lt. rewrite Hp, Hl. rewrite consume_rem. unfold rem. rewrite Hl. cbn [length]. lia.
Qed.

Lemma rem_lt_advance r b l : rinput r = EByte b :: l ->
  rem_lt r (advance_over r (fst (span_symbol l [b])) (snd (span_symbol l [b]))).
Proof. intros Hl. pose proof (span_symbol_len l [b]). unfold rem_lt. rewrite advance_over_rem. unfold rem. rewrite Hl. cbn [length]. lia. Qed.

Theorem token_consumes ro alpha fast std_parse fuel b r : at_byte b r ->
  match parse_token ro alpha fast std_parse fuel b r with
  | (Ok _, r') => (rem r' < rem r)%nat
  | (Err _, _) => True
  end.
Proof.
  exact (strict_parse_token Rrem Rrem_ret Rrem_seq Rrem_fuel rem_peek rem_next rem_eat rem_error rem_peek_error
           rem_take_run rem_take_symbol fast std_parse ro alpha rem_lt rem_lt_then rem_lt_eat rem_lt_next
           (strict_symbol_rd Rrem rem_lt Rrem_ret Rrem_seq Rrem_fuel rem_peek rem_eat rem_error rem_lt_then rem_lt_eat rem_lt_advance) fuel b r).
Qed.

Definition okc {A} (m : M A) (r : reader) : Prop :=
  fst (m r) <> Err EFuel /\ (rem (snd (m r)) <= rem r)%nat.
Definition ok {A} (n : nat) (m : M A) : Prop := forall r, (rem r <= n)%nat -> okc m r.
Definition okat {A} (b : N) (n : nat) (m : M A) : Prop := forall r, at_byte b r -> (rem r <= n)%nat -> okc m r.

Lemma ok_mono {A} n n' (m : M A) : (n <= n')%nat -> ok n' m -> ok n m.
Proof. intros H Hm r Hr. apply Hm. lia. Qed.
Lemma okat_weaken {A} b n (m : M A) : ok n m -> okat b n m.
Proof. intros H r _ Hr. apply H. exact Hr. Qed.

Lemma ok_ret {A} n (a : A) : ok n (ret a).
Proof. intros r _. split; [discriminate|cbn; lia]. Qed.
Lemma ok_error {A} n c : ok n (@error A c).
Proof. intros r _. unfold okc, error. destruct (r_position r). split; [discriminate|cbn; lia]. Qed.
Lemma ok_peek_error {A} n c : ok n (@peek_error A c).
Proof. intros r _. unfold okc, peek_error. destruct (r_peek_position r). split; [discriminate|cbn; lia]. Qed.
Lemma ok_error_consume {A} n c : ok n (@error_consume A c).
Proof.
  intros r _. unfold okc, error_consume, peek_error. destruct (r_peek_position r). split; [discriminate|cbn [snd]; apply discard_rem].
Qed.
Lemma ok_sat {A} n (m : M A) : sat Rrem m -> (forall r, fst (m r) <> Err EFuel) -> ok n m.
Proof. intros Hs Hf r _. split; [apply Hf|apply Hs]. Qed.

Lemma ok_peek n : ok n peek.
Proof. intros r _. pose proof (peek_cases r) as H. unfold okc, peek. destruct (r_peek r) as [[[b|]|e] r1]; cbn [fst snd]; split; try discriminate; try lia. destruct H. congruence. Qed.
Lemma ok_next n : ok n next_char.
Proof. intros r _. pose proof (next_cases r) as H. unfold okc, next_char. destruct (r_next r) as [[[b|]|e] r1]; cbn [fst snd]; split; try discriminate; try lia. destruct H. congruence. Qed.
Lemma ok_eat n : ok n eat_char.
Proof. apply ok_sat; [apply rem_eat|intros r; discriminate]. Qed.
Lemma ok_position n : ok n position.
Proof. intros r _. split; [discriminate|cbn; lia]. Qed.

Lemma okc_bind {A B} (m : M A) (f : A -> M B) r :
  okc m r -> (forall a r1, m r = (Ok a, r1) -> (rem r1 <= rem r)%nat -> okc (f a) r1) -> okc (bind m f) r.
Proof.
  intros [H1 H2] Hf. unfold okc, bind. destruct (m r) as [[a|e] r1]; cbn [fst snd] in *.
  - destruct (Hf a r1 eq_refl H2) as [H3 H4]. split; [exact H3|lia].
  - split; [congruence|exact H2].
Qed.
Lemma ok_bind {A B} n (m : M A) (f : A -> M B) : ok n m -> (forall a, ok n (f a)) -> ok n (bind m f).
Proof. intros Hm Hf r Hr. apply okc_bind; [exact (Hm r Hr)|]. intros a r1 _ Hle. apply Hf. lia. Qed.
Lemma okat_bind {A B} b n (m : M A) (f : A -> M B) : okat b n m -> (forall a, ok n (f a)) -> okat b n (bind m f).
Proof. intros Hm Hf r Hb Hr. apply okc_bind; [exact (Hm r Hb Hr)|]. intros a r1 _ Hle. apply Hf. lia. Qed.

Lemma ok_ext {A} n (m m' : M A) : (forall r, m r = m' r) -> ok n m' -> ok n m.
Proof. intros E H r Hr. unfold okc. rewrite E. apply H. exact Hr. Qed.
Lemma ok_by_rk {A} n (m : M A) (f : src_kind -> M A) :
  (forall r, m r = f (rk r) r) -> (forall k, ok n (f k)) -> ok n m.
Proof. intros E H r Hr. unfold okc. rewrite E. apply (H (rk r)). exact Hr. Qed.

Lemma ok_bind_peek {A} n (k : option N -> M A) :
  ok n (k None) -> (forall b, okat b n (k (Some b))) -> ok n (bind peek k).
Proof.
  intros Hn Hs r Hr. apply okc_bind; [exact (ok_peek n r Hr)|]. intros o r1 E Hle.
  pose proof (peek_cases r) as Hc. unfold peek in E. rewrite E in Hc. destruct o as [b|]; [apply Hs; [apply Hc|lia]|apply Hn; lia].
Qed.
Lemma ok_bind_peek_or_null {A} n (k : N -> M A) :
  ok n (k 0) -> (forall b, okat b n (k b)) -> ok n (bind peek_or_null k).
Proof. intros Hn Hs. eapply ok_ext; [apply peek_or_null_bind|]. apply ok_bind_peek; [exact Hn|exact Hs]. Qed.
Lemma okat_bind_peek {A} b n (k : option N -> M A) : okat b n (k (Some b)) -> okat b n (bind peek k).
Proof. intros H r Hb Hr. unfold okc, bind, peek. rewrite (peek_at b r Hb). apply H; assumption. Qed.
Lemma okat_bind_peek_or_null {A} b n (k : N -> M A) : okat b n (k b) -> okat b n (bind peek_or_null k).
Proof. intros H r Hb Hr. unfold okc, bind. rewrite (peek_or_null_at b r Hb). apply H; assumption. Qed.

Lemma okat_bind_eat {B} b n (m : M B) :
  (forall n', n = S n' -> ok n' m) -> okat b n (bind (A := unit) eat_char (fun _ => m)).
Proof.
  intros H r Hb Hr. unfold okc, bind, eat_char. pose proof (discard_at b r Hb) as Hd.
  destruct n as [|n']; [lia|]. destruct (H n' eq_refl (r_discard r) ltac:(lia)) as [H1 H2]. split; [exact H1|lia].
Qed.
Lemma okat_bind_next {A} b n (k : option N -> M A) :
  (forall n', n = S n' -> ok n' (k (Some b))) -> okat b n (bind next_char k).
Proof.
  intros H r [Hp [l Hl]] Hr. unfold okc, bind, next_char, r_next. rewrite Hp, Hl.
  assert (Hd : S (rem (consume r b l)) = rem r) by (rewrite consume_rem; unfold rem; rewrite Hl; reflexivity).
  destruct n as [|n']; [lia|]. destruct (H n' eq_refl (consume r b l) ltac:(lia)) as [H1 H2]. split; [exact H1|lia].
Qed.

Lemma ok_bind_next {A} n (k : option N -> M A) :
  ok n (k None) -> (forall c n', n = S n' -> ok n' (k (Some c))) -> ok n (bind next_char k).
Proof.
  intros Hn Hs r Hr. apply okc_bind; [exact (ok_next n r Hr)|]. intros o r1 E Hle.
  pose proof (next_cases r) as Hc. unfold next_char in E. rewrite E in Hc. destruct o as [b|]; [|apply Hn; lia].
  destruct n as [|n']; [lia|]. apply (Hs b n' eq_refl). lia.
Qed.
Lemma ok_bind_next_or {A} n c (k : N -> M A) :
  (forall ch n', n = S n' -> ok n' (k ch)) ->
  ok n (bind (o <- next_char ;; match o with Some b => ret b | None => error c end) k).
Proof.
  intros Hs. eapply ok_ext; [intros r; apply bind_assoc|]. apply ok_bind_next; [|exact Hs].
  eapply ok_ext; [|apply (ok_error n c)]. intros r. unfold bind, error. destruct (r_position r). reflexivity.
Qed.

(* SliceRead's bulk run: when it stops on a byte, that byte is consumed *)
Lemma ok_bind_take_run {A} n (k : bytes * option N -> M A) :
  (forall run, ok n (k (run, None))) -> (forall run b n', n = S n' -> ok n' (k (run, Some b))) ->
  ok n (bind take_run k).
Proof.
  intros Hn Hs r Hr. unfold okc, bind, take_run. pose proof (span_plain_len (rinput r) []) as Hl.
  destruct (span_plain (rinput r) []) as [run rest]. cbn [snd] in Hl.
  destruct rest as [|[b| |e] rest'].
  - destruct (Hn run (advance_over r run []) ltac:(rewrite advance_over_rem; cbn; lia)) as [H1 H2].
    split; [exact H1|]. rewrite advance_over_rem in H2. cbn [length] in *. unfold rem at 2. lia.
  - assert (Hd : (S (rem (consume (advance_over r run (EByte b :: rest')) b rest')) <= rem r)%nat)
      by (rewrite consume_rem; unfold rem; cbn [length] in Hl; lia).
    destruct n as [|n']; [lia|].
    destruct (Hs run b n' eq_refl (consume (advance_over r run (EByte b :: rest')) b rest') ltac:(lia)) as [H1 H2].
    split; [exact H1|lia].
  - destruct (Hn run (advance_over r run (EInterrupted :: rest')) ltac:(rewrite advance_over_rem; unfold rem in Hr; lia)) as [H1 H2].
    split; [exact H1|]. rewrite advance_over_rem in H2. unfold rem at 2. lia.
  - destruct (Hn run (advance_over r run (EFail e :: rest')) ltac:(rewrite advance_over_rem; unfold rem in Hr; lia)) as [H1 H2].
    split; [exact H1|]. rewrite advance_over_rem in H2. unfold rem at 2. lia.
Qed.
Lemma ok_take_symbol n : ok n take_symbol_run.
Proof. apply ok_sat; [apply rem_take_symbol|]. intros r. unfold take_symbol_run. destruct (span_symbol (rinput r) []). discriminate. Qed.

Create HintDb okdb.
#[export] Hint Extern 1 (_ < _)%nat => lia : okdb.
#[export] Hint Extern 1 (_ <= _)%nat => lia : okdb.

Ltac ok_step :=
  lazymatch goal with
  | |- ok _ (ret _) => apply ok_ret
  | |- ok _ (error _) => apply ok_error
  | |- ok _ (peek_error _) => apply ok_peek_error
  | |- ok _ (error_consume _) => apply ok_error_consume
  | |- ok _ peek => apply ok_peek
  | |- ok _ next_char => apply ok_next
  | |- ok _ eat_char => apply ok_eat
  | |- ok _ position => apply ok_position
  | |- ok _ take_symbol_run => apply ok_take_symbol
  | |- _ =>
      first
        [ solve [eauto 4 with okdb]
        | solve [apply okat_weaken; eauto 4 with okdb]
        | lazymatch goal with
          | |- okat _ _ (bind eat_char _) => apply okat_bind_eat; intros ? ?
          | |- okat _ _ (bind next_char _) => apply okat_bind_next; intros ? ?
          | |- okat _ _ (bind peek _) => apply okat_bind_peek
          | |- okat _ _ (bind peek_or_null _) => apply okat_bind_peek_or_null
          | |- ok _ (bind peek _) => apply ok_bind_peek; [|intros ?]
          | |- ok _ (bind next_or_eof _) => apply ok_bind_next_or; intros ? ? ?
          | |- ok _ (bind next_or_eof_char _) => apply ok_bind_next_or; intros ? ? ?
          | |- ok _ (bind next_char _) => apply ok_bind_next; [|intros ? ? ?]
          | |- ok _ (bind take_run _) => apply ok_bind_take_run; [intros ?|intros ? ? ? ?]; cbn [fst snd]
          | |- ok _ (match ?x with _ => _ end) => destruct x
          | |- ok _ (if ?x then _ else _) => destruct x
          | |- ok _ (let '(_, _) := ?x in _) => destruct x
          | |- okat _ _ (match ?x with _ => _ end) => destruct x
          | |- okat _ _ (if ?x then _ else _) => destruct x
          | |- okat _ _ (let '(_, _) := ?x in _) => destruct x
          | |- ok _ (bind _ _) => apply ok_bind; [|intros ?]
          | |- ok ?n (fun r => ?m r) => change (ok n m)
          | |- okat _ _ _ => apply okat_weaken
          end ]
  end.
Ltac ok_auto := repeat ok_step.

Ltac ok_pon := apply ok_bind_peek_or_null; [at_zero|intros ?].

Lemma ok_next_or_eof n : ok n next_or_eof.
Proof. unfold next_or_eof. ok_auto. Qed.
Lemma ok_next_or_eof_char n : ok n next_or_eof_char.
Proof. unfold next_or_eof_char. ok_auto. Qed.
Lemma ok_peek_or_null n : ok n peek_or_null.
Proof. unfold peek_or_null. apply ok_bind; [apply ok_peek|intros ?; apply ok_ret]. Qed.
Lemma ok_as_str n b : ok n (Scan.as_str b).
Proof. unfold Scan.as_str. ok_auto. Qed.
Lemma ok_finish_str n b : ok n (finish_str b).
Proof.
  apply (ok_by_rk _ _ (fun k => match k with SrcStr => ret b | _ => Scan.as_str b end));
    [intros r; unfold finish_str; destruct (rk r); reflexivity|].
  intros k; destruct k; first [apply ok_ret | apply ok_as_str].
Qed.
#[export] Hint Resolve ok_next_or_eof ok_next_or_eof_char ok_peek_or_null ok_as_str ok_finish_str : okdb.

Lemma ok_scan_symbol_io fuel : forall scratch n, (n < fuel)%nat -> ok n (scan_symbol_io fuel scratch).
Proof. induction fuel as [|f IH]; intros scratch n Hn; [lia|]. cbn [scan_symbol_io]. ok_auto. Qed.
Lemma ok_scan_symbol_slice scratch n : ok n (scan_symbol_slice scratch).
Proof. eapply ok_ext; [intros r; apply scan_symbol_slice_eq|]. cbv zeta. ok_auto. Qed.
Lemma ok_parse_symbol_rd fuel scratch n : (n < fuel)%nat -> ok n (parse_symbol_rd fuel scratch).
Proof.
  intros Hn.
  apply (ok_by_rk _ _ (fun k => match k with
                                | SrcIo => b <- scan_symbol_io fuel scratch ;; Scan.as_str b
                                | _ => b <- scan_symbol_slice scratch ;; finish_str b
                                end)); [intros r; unfold parse_symbol_rd; destruct (rk r); reflexivity|].
  pose proof ok_scan_symbol_io. pose proof ok_scan_symbol_slice.
  intros k; destruct k; ok_auto.
Qed.
#[export] Hint Resolve ok_parse_symbol_rd : okdb.

Lemma ok_hex_escape_loop fuel : forall x n, (n < fuel)%nat -> ok n (hex_escape_loop fuel x).
Proof. induction fuel as [|f IH]; intros x n Hn; [lia|]. cbn [hex_escape_loop]. ok_auto. Qed.
Lemma ok_parse_r6rs_escape fuel n : (n < fuel)%nat -> ok n (parse_r6rs_escape fuel).
Proof. intros Hn. pose proof ok_hex_escape_loop. unfold parse_r6rs_escape, decode_r6rs_hex_escape. ok_auto. Qed.
#[export] Hint Resolve ok_parse_r6rs_escape : okdb.
Lemma ok_r6rs_str_io fuel : forall scratch n, (n < fuel)%nat -> ok n (r6rs_str_io fuel scratch).
Proof. induction fuel as [|f IH]; intros scratch n Hn; [lia|]. cbn [r6rs_str_io]. ok_auto. Qed.
Lemma ok_r6rs_str_slice fuel : forall scratch n, (n < fuel)%nat -> ok n (r6rs_str_slice fuel scratch).
Proof.
  induction fuel as [|f IH]; intros scratch n Hn; [lia|].
  eapply ok_ext; [intros r; apply r6rs_str_slice_eq|]. ok_auto.
Qed.
Lemma ok_parse_r6rs_str_rd fuel n : (n < fuel)%nat -> ok n (parse_r6rs_str_rd fuel).
Proof.
  intros Hn.
  apply (ok_by_rk _ _ (fun k => match k with
                                | SrcIo => b <- r6rs_str_io fuel [] ;; Scan.as_str b
                                | _ => b <- r6rs_str_slice fuel [] ;; finish_str b
                                end)); [intros r; unfold parse_r6rs_str_rd; destruct (rk r); reflexivity|].
  pose proof ok_r6rs_str_io. pose proof ok_r6rs_str_slice.
  intros k; destruct k; ok_auto.
Qed.
#[export] Hint Resolve ok_parse_r6rs_str_rd : okdb.

Lemma ok_elisp_hex_loop fuel : forall x n, (n < fuel)%nat -> ok n (elisp_hex_loop fuel x).
Proof. induction fuel as [|f IH]; intros x n Hn; [lia|]. cbn [elisp_hex_loop]. ok_auto. Qed.
Lemma ok_decode_elisp_uni_escape k : forall x n, ok n (decode_elisp_uni_escape k x).
Proof. induction k as [|k IH]; intros x n; cbn [decode_elisp_uni_escape]; ok_auto. Qed.
Lemma ok_elisp_octal_loop fuel : forall x n, (n < fuel)%nat -> ok n (elisp_octal_loop fuel x).
Proof. induction fuel as [|f IH]; intros x n Hn; [lia|]. cbn [elisp_octal_loop]. ok_auto. Qed.
Lemma ok_elisp_char_escape_of x n : ok n (elisp_char_escape_of x).
Proof. unfold elisp_char_escape_of. ok_auto. Qed.
Lemma ok_elisp_uni_escape_of x n : ok n (elisp_uni_escape_of x).
Proof. unfold elisp_uni_escape_of. ok_auto. Qed.
#[export] Hint Resolve ok_elisp_hex_loop ok_decode_elisp_uni_escape ok_elisp_octal_loop ok_elisp_char_escape_of ok_elisp_uni_escape_of : okdb.
Lemma ok_parse_elisp_escape fuel n : (n < fuel)%nat -> ok n (parse_elisp_escape fuel).
Proof.
  intros Hn. unfold parse_elisp_escape, decode_elisp_hex_escape, decode_elisp_octal_escape. ok_auto.
Qed.
#[export] Hint Resolve ok_parse_elisp_escape : okdb.
Lemma ok_elisp_finish fl scratch n : ok n (elisp_finish fl scratch).
Proof. unfold elisp_finish. ok_auto. Qed.
#[export] Hint Resolve ok_elisp_finish : okdb.
Lemma ok_elisp_str_io fuel : forall fl scratch n, (n < fuel)%nat -> ok n (elisp_str_io fuel fl scratch).
Proof. induction fuel as [|f IH]; intros fl scratch n Hn; [lia|]. cbn [elisp_str_io]. ok_auto. Qed.
Lemma ok_elisp_str_slice fuel : forall fl scratch n, (n < fuel)%nat -> ok n (elisp_str_slice fuel fl scratch).
Proof.
  induction fuel as [|f IH]; intros fl scratch n Hn; [lia|].
  eapply ok_ext; [intros r; apply elisp_str_slice_eq|]. cbv zeta. ok_auto.
Qed.
Lemma ok_parse_elisp_str_rd fuel n : (n < fuel)%nat -> ok n (parse_elisp_str_rd fuel).
Proof.
  intros Hn.
  apply (ok_by_rk _ _ (fun k => match k with
                                | SrcIo => elisp_str_io fuel {| seen_ub := false; seen_mb := false; seen_na := false |} []
                                | _ => elisp_str_slice fuel {| seen_ub := false; seen_mb := false; seen_na := false |} []
                                end)); [intros r; unfold parse_elisp_str_rd; cbv zeta; destruct (rk r); reflexivity|].
  pose proof ok_elisp_str_io. pose proof ok_elisp_str_slice.
  intros k; destruct k; ok_auto.
Qed.
#[export] Hint Resolve ok_parse_elisp_str_rd : okdb.

Lemma ok_take_bytes k : forall acc n, ok n (take_bytes k acc).
Proof. induction k as [|k IH]; intros acc n; cbn [take_bytes]; ok_auto. Qed.
#[export] Hint Resolve ok_take_bytes : okdb.
Lemma ok_decode_utf8_sequence_b c n : ok n (decode_utf8_sequence_b c).
Proof. unfold decode_utf8_sequence_b. ok_auto. Qed.
#[export] Hint Resolve ok_decode_utf8_sequence_b : okdb.
Lemma ok_decode_utf8_sequence c n : ok n (decode_utf8_sequence c).
Proof. unfold decode_utf8_sequence. ok_auto. Qed.
#[export] Hint Resolve ok_decode_utf8_sequence : okdb.
Lemma ok_r6rs_char_hex_loop fuel : forall x first n, (n < fuel)%nat -> ok n (r6rs_char_hex_loop fuel x first).
Proof. induction fuel as [|f IH]; intros x first n Hn; [lia|]. cbn [r6rs_char_hex_loop]. ok_auto. Qed.
Lemma ok_char_name_loop fuel : forall scratch n, (n < fuel)%nat -> ok n (char_name_loop fuel scratch).
Proof. induction fuel as [|f IH]; intros scratch n Hn; [lia|]. cbn [char_name_loop]. ok_auto. Qed.
Lemma ok_open_ended_char x n : ok n (open_ended_char x).
Proof. unfold open_ended_char. ok_auto. Qed.
#[export] Hint Resolve ok_r6rs_char_hex_loop ok_char_name_loop ok_open_ended_char : okdb.
Lemma ok_parse_r6rs_char fuel n : (n < fuel)%nat -> ok n (parse_r6rs_char fuel).
Proof. intros Hn. unfold parse_r6rs_char. ok_auto. Qed.
#[export] Hint Resolve ok_parse_r6rs_char : okdb.
Lemma ok_as_char x n : ok n (Scan.as_char x).
Proof. unfold Scan.as_char. ok_auto. Qed.
#[export] Hint Resolve ok_as_char : okdb.
Lemma ok_decode_elisp_char_escape fuel n : (n < fuel)%nat -> ok n (decode_elisp_char_escape fuel).
Proof.
  intros Hn. unfold decode_elisp_char_escape, decode_elisp_hex_escape, decode_elisp_octal_escape. ok_auto.
Qed.
#[export] Hint Resolve ok_decode_elisp_char_escape : okdb.
Lemma ok_parse_elisp_char fuel n : (n < fuel)%nat -> ok n (parse_elisp_char fuel).
Proof. intros Hn. unfold parse_elisp_char. ok_auto. Qed.
#[export] Hint Resolve ok_parse_elisp_char : okdb.

Definition radix_ok' (radix : N) : Prop := radix = 2 \/ radix = 8 \/ radix = 10 \/ radix = 16.
Lemma is_digit_val c : is_digit c = true -> c - 48 < 10.
Proof. unfold is_digit, in_range. lia. Qed.

Section NumFuel.
  Variable fast : bool.
  Variable std_parse : N -> Z -> f64.
  (* the one loop whose bound is a fact about f64 arithmetic (FloatFuel.v) *)
  Hypothesis Hfp : forall pos sig e n, sig <= u64_MAX -> ok n (f64_from_parts fast std_parse pos sig e).

  Lemma ok_skip_digits fuel : forall n, (n < fuel)%nat -> ok n (skip_digits fuel).
  Proof. induction fuel as [|f IH]; intros n Hn; [lia|]. cbn [skip_digits]. ok_pon; ok_auto. Qed.
  Hint Resolve ok_skip_digits : okdb.
  Lemma ok_parse_exponent_overflow fuel p s pe n : (n < fuel)%nat -> ok n (parse_exponent_overflow fuel p s pe).
  Proof. intros Hn. unfold parse_exponent_overflow. ok_auto. Qed.
  Hint Resolve ok_parse_exponent_overflow : okdb.
  Lemma ok_exponent_digits fuel : forall p s pe se e n, s <= u64_MAX -> (n < fuel)%nat ->
    ok n (exponent_digits fast std_parse fuel p s pe se e).
  Proof.
    induction fuel as [|f IH]; intros p s pe se e n Hs Hn; [lia|]. cbn [exponent_digits]. cbv zeta.
    ok_pon; ok_auto; apply Hfp; exact Hs.
  Qed.
  Lemma ok_parse_exponent fuel p s se n : s <= u64_MAX -> (n < fuel)%nat -> ok n (parse_exponent fast std_parse fuel p s se).
  Proof. intros Hs Hn. pose proof ok_exponent_digits. unfold parse_exponent. ok_auto. Qed.
  Hint Resolve ok_parse_exponent : okdb.

  Lemma ok_decimal_digits fuel : forall s e o n, (n < fuel)%nat -> ok n (decimal_digits fuel s e o).
  Proof. induction fuel as [|f IH]; intros s e o n Hn; [lia|]. cbn [decimal_digits]. cbv zeta. ok_pon; ok_auto. Qed.
  Lemma decimal_digits_sig fuel : forall s e o r a r', s <= u64_MAX ->
    decimal_digits fuel s e o r = (Ok a, r') -> fst (fst a) <= u64_MAX.
  Proof.
    induction fuel as [|f IH]; intros s e o r a r' Hs; cbn [decimal_digits]; [discriminate|].
    unfold bind at 1. destruct (peek_or_null r) as [[c|err] r1]; [|discriminate].
    destruct (is_digit c) eqn:Ed.
    - unfold bind at 1. unfold eat_char. cbv zeta. destruct (overflow_N s 10 (c - 48) u64_MAX) eqn:Eo.
      + unfold bind. destruct (skip_digits f (r_discard r1)) as [[u|err] r2]; [|discriminate].
        unfold ret. intros H. inversion H. subst. exact Hs.
      + apply IH. apply (overflow_false_le s 10 (c - 48) u64_MAX); [right; right; left; reflexivity|apply is_digit_val; exact Ed|exact Eo].
    - unfold ret. intros H. inversion H. subst. exact Hs.
  Qed.
  Lemma ok_parse_decimal fuel p s e n : s <= u64_MAX -> (n < fuel)%nat -> ok n (parse_decimal fast std_parse fuel p s e).
  Proof.
    intros Hs Hn. unfold parse_decimal. apply ok_bind; [apply ok_eat|intros _].
    intros r Hr. apply okc_bind; [exact (ok_decimal_digits fuel s e false n Hn r Hr)|]. intros [[sig ex] one] r1 E Hle.
    pose proof (decimal_digits_sig fuel s e false r _ _ Hs E) as Hsig. cbn [fst] in Hsig.
    assert (Hk : ok n (if negb one
                       then o <- peek;; match o with Some _ => peek_error InvalidNumber | None => peek_error EofWhileParsingValue end
                       else c <- peek_or_null;; if (c =? 101) || (c =? 69) then parse_exponent fast std_parse fuel p sig ex
                                                else f64_from_parts fast std_parse p sig ex)).
    { ok_auto; apply Hfp; exact Hsig. }
    apply Hk. lia.
  Qed.
  Hint Resolve ok_parse_decimal : okdb.

  Lemma ok_parse_long_integer fuel : forall radix p s e n, s <= u64_MAX -> (S n < fuel)%nat ->
    ok n (parse_long_integer fast std_parse fuel radix p s e).
  Proof.
    induction fuel as [|f IH]; intros radix p s e n Hs Hn; [lia|]. cbn [parse_long_integer]. cbv zeta.
    ok_pon; ok_auto; apply Hfp; exact Hs.
  Qed.
  Hint Resolve ok_parse_long_integer : okdb.
  Lemma ok_parse_num_tail fuel radix p s n : s <= u64_MAX -> (n < fuel)%nat -> ok n (parse_num_tail fast std_parse fuel radix p s).
  Proof. intros Hs Hn. unfold parse_num_tail. ok_auto. Qed.
  Hint Resolve ok_parse_num_tail : okdb.
  Lemma ok_num_literal_loop fuel : forall radix p s n, radix_ok' radix -> s <= u64_MAX -> (S n < fuel)%nat ->
    ok n (num_literal_loop fast std_parse fuel radix p s).
  Proof.
    induction fuel as [|f IH]; intros radix p s n Hr Hs Hn; [lia|]. cbn [num_literal_loop].
    ok_pon; [ok_auto|].
    destruct (digit_val (10 <? radix) b) as [digit|] eqn:Ed; [|ok_auto].
    destruct (radix <=? digit) eqn:El; [ok_auto|].
    apply okat_bind_eat; intros n' Hn'. destruct (overflow_N s radix digit u64_MAX) eqn:Eo; [ok_auto|].
    apply IH; [exact Hr| |lia]. apply (overflow_false_le s radix digit u64_MAX Hr ltac:(lia) Eo).
  Qed.
  Lemma ok_parse_num_literal fuel radix p n : radix_ok' radix -> (n < fuel)%nat -> ok n (parse_num_literal fast std_parse fuel radix p).
  Proof.
    intros Hr Hn. unfold parse_num_literal. apply ok_bind_next; [ok_auto|]. intros c n' Hn'.
    destruct (digit_val true c) as [d|] eqn:Ed; [|ok_auto]. destruct (radix <=? d) eqn:El; [ok_auto|].
    apply ok_num_literal_loop; [exact Hr| |lia].
    pose proof (digit_val_lt _ _ _ Ed). destruct Hr as [->|[->|[->| ->]]]; unfold u64_MAX; lia.
  Qed.
  Lemma ok_parse_num_token fuel radix p n : radix_ok' radix -> (n < fuel)%nat -> ok n (parse_num_token fast std_parse fuel radix p).
  Proof. intros Hr Hn. pose proof ok_parse_num_literal. unfold parse_num_token. ok_auto. Qed.
  Hint Resolve ok_parse_num_token : okdb.
  Lemma ok_parse_radix_literal fuel radix n : radix_ok' radix -> (n < fuel)%nat -> ok n (parse_radix_literal fast std_parse fuel radix).
  Proof. intros Hr Hn. unfold parse_radix_literal. ok_auto. Qed.
  Hint Resolve ok_parse_radix_literal : okdb.
  Lemma rok2 : radix_ok' 2.  Proof. left; reflexivity. Qed.
  Lemma rok8 : radix_ok' 8.  Proof. right; left; reflexivity. Qed.
  Lemma rok10 : radix_ok' 10.  Proof. right; right; left; reflexivity. Qed.
  Lemma rok16 : radix_ok' 16.  Proof. right; right; right; reflexivity. Qed.
  Hint Resolve rok2 rok8 rok10 rok16 : okdb.
  Lemma ok_parse_number fuel n : (n < fuel)%nat -> ok n (parse_number fast std_parse fuel).
  Proof. intros Hn. unfold parse_number. ok_auto. Qed.
  Hint Resolve ok_parse_number : okdb.
End NumFuel.

Definition stricto {A} (n : nat) (m : M A) : Prop :=
  forall r, (rem r <= n)%nat -> match m r with (Ok _, r') => (rem r' < rem r)%nat | (Err _, _) => True end.

Lemma stricto_bind_l {A B} n (m : M A) (f : A -> M B) : stricto n m -> (forall a, ok n (f a)) -> stricto n (bind m f).
Proof.
  intros Hm Hf r Hr. unfold bind. specialize (Hm r Hr). destruct (m r) as [[a|e] r1]; [|exact I].
  destruct (Hf a r1 ltac:(lia)) as [_ H2]. destruct (f a r1) as [[b|e] r2]; cbn [fst snd] in *; [lia|exact I].
Qed.
Lemma stricto_bind_r {A B} n (m : M A) (f : A -> M B) : ok n m -> (forall a, stricto n (f a)) -> stricto n (bind m f).
Proof.
  intros Hm Hf r Hr. unfold bind. destruct (Hm r Hr) as [_ H2]. destruct (m r) as [[a|e] r1]; cbn [fst snd] in *; [|exact I].
  specialize (Hf a r1 ltac:(lia)). destruct (f a r1) as [[b|e] r2]; [lia|exact I].
Qed.
Lemma stricto_err {A} n c : stricto n (@peek_error A c).
Proof. intros r _. unfold peek_error. destruct (r_peek_position r). exact I. Qed.
Lemma ok_bind_strict {A B} n (m : M A) (f : A -> M B) :
  ok n m -> stricto n m -> (forall a n', n = S n' -> ok n' (f a)) -> ok n (bind m f).
Proof.
  intros Hm Hs Hf r Hr. apply okc_bind; [exact (Hm r Hr)|]. intros a r1 E _. specialize (Hs r Hr). rewrite E in Hs.
  destruct n as [|n']; [lia|]. apply (Hf a n' eq_refl). lia.
Qed.

Lemma skip_comment_cases fuel : forall n r, (n < fuel)%nat -> (rem r <= n)%nat ->
  match skip_comment fuel r with
  | (Ok true, r') => (rem r' < rem r)%nat
  | (Ok false, r') => (rem r' <= rem r)%nat
  | (Err e, r') => e <> EFuel /\ (rem r' <= rem r)%nat
  end.
Proof.
  induction fuel as [|f IH]; intros n r Hn Hr; [lia|]. cbn [skip_comment]. unfold bind, next_char.
  pose proof (next_cases r) as Hc. destruct (r_next r) as [[[c|]|e] r1]; cbn [fst snd] in *.
  - destruct (c =? 10); [unfold ret; exact Hc|].
    destruct n as [|n']; [lia|]. specialize (IH n' r1 ltac:(lia) ltac:(lia)).
    destruct (skip_comment f r1) as [[[|]|e] r2]; [lia|lia|]. destruct IH as [He Hl]. split; [exact He|lia].
  - unfold ret. exact Hc.
  - exact Hc.
Qed.

Lemma ok_parse_whitespace fuel : forall n, (S n < fuel)%nat -> ok n (parse_whitespace fuel).
Proof.
  induction fuel as [|f IH]; intros n Hn; [lia|]. cbn [parse_whitespace].
  apply ok_bind_peek; [ok_auto|]. intros c. destruct (c =? 59).
  - intros r Hb Hr. unfold okc, bind. pose proof (skip_comment_cases f n r ltac:(lia) Hr) as Hc.
    destruct (skip_comment f r) as [[[|]|e] r1]; cbn [fst snd].
    + destruct n as [|n']; [lia|]. destruct (IH n' ltac:(lia) r1 ltac:(lia)) as [H1 H2]. split; [exact H1|lia].
    + unfold ret. cbn [fst snd]. split; [discriminate|exact Hc].
    + destruct Hc as [He Hl]. split; [congruence|exact Hl].
  - destruct (memb c [32; 10; 9; 13; 12]); [|ok_auto].
    apply okat_bind_eat. intros n' Hn'. apply IH. lia.
Qed.
#[export] Hint Resolve ok_parse_whitespace : okdb.

Lemma ok_end_seq fuel close n : (S n < fuel)%nat -> ok n (end_seq fuel close).
Proof. intros Hn. unfold end_seq. ok_auto. Qed.
Lemma ok_expect_end fuel n : (S n < fuel)%nat -> ok n (expect_end fuel).
Proof. intros Hn. unfold expect_end. ok_auto. Qed.

Section TokenFuel.
  Variable ro : parse_options.
  Variable alpha : N -> bool.
  Variable fast : bool.
  Variable std_parse : N -> Z -> f64.
  Hypothesis Hfp : forall pos sig e n, sig <= u64_MAX -> ok n (f64_from_parts fast std_parse pos sig e).

  Local Hint Resolve ok_skip_digits ok_parse_exponent_overflow ok_parse_exponent ok_parse_decimal ok_parse_long_integer
    ok_parse_num_tail ok_parse_num_token ok_parse_radix_literal ok_parse_number rok2 rok8 rok10 rok16 : okdb.

  Lemma strict_parse_num_literal fuel radix p n : radix_ok' radix -> (n < fuel)%nat ->
    stricto n (parse_num_literal fast std_parse fuel radix p).
  Proof.
    clear alpha. intros Hr Hn r Hrem. pose proof (ok_parse_num_literal fast std_parse Hfp fuel radix p n Hr Hn r Hrem) as [_ Hle].
    unfold parse_num_literal, bind, next_char in *. pose proof (next_cases r) as Hc.
    destruct (r_next r) as [[[c|]|e] r1]; cbn [fst snd] in *.
    - destruct (digit_val true c) as [d|]; [|unfold peek_error; destruct (r_peek_position r1); exact I].
      destruct (radix <=? d); [unfold peek_error; destruct (r_peek_position r1); exact I|].
      pose proof (sat_num_literal_loop Rrem Rrem_ret Rrem_seq Rrem_fuel rem_peek rem_next rem_eat rem_error rem_peek_error fast std_parse fuel radix p d r1) as Hs.
      unfold R, Rrem in Hs. destruct (num_literal_loop fast std_parse fuel radix p d r1) as [[x|e] r2]; cbn [fst snd] in *; [lia|exact I].
    - unfold peek_error. destruct (r_peek_position r1). exact I.
    - exact I.
  Qed.
  Lemma strict_parse_num_token fuel radix p n : radix_ok' radix -> (n < fuel)%nat ->
    stricto n (parse_num_token fast std_parse fuel radix p).
  Proof.
    intros Hr Hn. unfold parse_num_token. apply stricto_bind_l; [apply strict_parse_num_literal; assumption|]. intros a. ok_auto.
  Qed.
  Lemma strict_parse_radix_literal fuel radix n : radix_ok' radix -> (n < fuel)%nat ->
    stricto n (parse_radix_literal fast std_parse fuel radix).
  Proof.
    intros Hr Hn. unfold parse_radix_literal. apply stricto_bind_r; [auto with okdb|]. intros c.
    destruct (c =? 45); [apply stricto_bind_r; [apply ok_eat|intros _; apply strict_parse_num_token; assumption]|].
    destruct (c =? 43); [apply stricto_bind_r; [apply ok_eat|intros _; apply strict_parse_num_token; assumption]|].
    apply strict_parse_num_token; assumption.
  Qed.
  Lemma strict_parse_number fuel n : (n < fuel)%nat -> stricto n (parse_number fast std_parse fuel).
  Proof.
    intros Hn. unfold parse_number. apply stricto_bind_r; [auto with okdb|]. intros c.
    destruct (c =? 35); [|apply strict_parse_radix_literal; auto with okdb].
    apply stricto_bind_r; [apply ok_eat|intros _]. apply stricto_bind_r; [apply ok_next|intros o].
    destruct o as [x|]; [|apply stricto_err].
    repeat match goal with |- stricto _ (if ?c then _ else _) => destruct c end;
      first [apply strict_parse_radix_literal; auto with okdb | apply stricto_err].
  Qed.

  Lemma ok_parse_symbol fuel n : (n < fuel)%nat -> ok n (parse_symbol fuel).
  Proof. intros Hn. unfold parse_symbol. ok_auto. Qed.
  Lemma ok_parse_symbol_suffix fuel p n : (n < fuel)%nat -> ok n (parse_symbol_suffix fuel p).
  Proof. intros Hn. unfold parse_symbol_suffix. ok_auto. Qed.
  Hint Resolve ok_parse_symbol ok_parse_symbol_suffix : okdb.
  Lemma ok_expect_ident ident : forall n, ok n (expect_ident ident).
  Proof. induction ident as [|c ident IH]; intros n; cbn [expect_ident]; ok_auto. Qed.
  Hint Resolve ok_expect_ident : okdb.

  Lemma ok_parse_token fuel b n : (n < fuel)%nat -> ok n (parse_token ro alpha fast std_parse fuel b).
  Proof.
    intros Hn. unfold parse_token. fold (@error_consume token ExpectedSomeValue). ok_auto.
  Qed.

  Lemma ok_byte_list_loop fuel : forall close acc n, (S (S n) < fuel)%nat -> ok n (byte_list_loop fast std_parse fuel close acc).
  Proof.
    clear alpha. induction fuel as [|f IH]; intros close acc n Hn; [lia|]. cbn [byte_list_loop].
    apply ok_bind; [apply ok_parse_whitespace; lia|]. intros o. destruct o as [c|]; [|ok_auto].
    destruct (c =? close); [ok_auto|].
    apply ok_bind_strict; [apply ok_parse_number; [exact Hfp|lia]|apply strict_parse_number; lia|].
    intros num n' Hn'. destruct (num_as_u64 num) as [u|]; [|ok_auto]. destruct (255 <? u); [ok_auto|]. apply IH. lia.
  Qed.
  Lemma ok_parse_byte_list fuel close n : (S (S n) < fuel)%nat -> ok n (parse_byte_list fast std_parse fuel close).
  Proof.
    clear alpha. intros Hn. pose proof ok_byte_list_loop. unfold parse_byte_list.
    apply ok_bind; [apply ok_parse_whitespace; lia|]. intros o. ok_auto.
  Qed.
End TokenFuel.

Definition pokc {A} (m : PM A) (s : pstate) : Prop :=
  fst (m s) <> PErr (XErr EFuel) /\ (rem (rd (snd (m s))) <= rem (rd s))%nat.
Definition pok {A} (n : nat) (m : PM A) : Prop := forall s, (rem (rd s) <= n)%nat -> pokc m s.
Definition item_strict {A} (m : PM (option A)) (s : pstate) : Prop :=
  match m s with (POk (Some _), s') => (rem (rd s') < rem (rd s))%nat | _ => True end.
Definition pokv {A} (n : nat) (m : PM (option A)) : Prop :=
  forall s, (rem (rd s) <= n)%nat -> pokc m s /\ item_strict m s.

(* Two runs side by side: the first reports no fuel error and gives no input
   back, and the second returns the same. The second program is the first one
   again, and then pj says what pok says, or (FuelMono) the same function with
   more fuel. *)
Definition agree {A} (n : nat) (m1 m2 : M A) : Prop := forall r, (rem r <= n)%nat -> m1 r = m2 r.
Definition pjc {A} (m1 m2 : PM A) (s : pstate) : Prop := m1 s = m2 s /\ pokc m1 s.
Definition pj {A} (n : nat) (m1 m2 : PM A) : Prop := forall s, (rem (rd s) <= n)%nat -> pjc m1 m2 s.
Definition pjat {A} (b : N) (n : nat) (m1 m2 : PM A) : Prop :=
  forall s, at_byte b (rd s) -> (rem (rd s) <= n)%nat -> pjc m1 m2 s.
Definition pjv {A} (n : nat) (m1 m2 : PM (option A)) : Prop :=
  forall s, (rem (rd s) <= n)%nat -> pjc m1 m2 s /\ item_strict m1 s.

Lemma agree_refl {A} n (m : M A) : agree n m m.
Proof. intros r _. reflexivity. Qed.
Lemma pj_refl {A} n (m : PM A) : pok n m -> pj n m m.
Proof. intros H s Hs. split; [reflexivity|apply H; exact Hs]. Qed.
Lemma pj_pok {A} n (m1 m2 : PM A) : pj n m1 m2 -> pok n m1.
Proof. intros H s Hs. apply H. exact Hs. Qed.
Lemma pjat_weaken {A} b n (m1 m2 : PM A) : pj n m1 m2 -> pjat b n m1 m2.
Proof. intros H s _ Hs. apply H. exact Hs. Qed.
Lemma pjv_pj {A} n (m1 m2 : PM (option A)) : pjv n m1 m2 -> pj n m1 m2.
Proof. intros H s Hs. apply H. exact Hs. Qed.

Lemma pjc_bind {A B} (m1 m2 : PM A) (f1 f2 : A -> PM B) s :
  pjc m1 m2 s -> (forall a s1, m1 s = (POk a, s1) -> pjc (f1 a) (f2 a) s1) -> pjc (pbind m1 f1) (pbind m2 f2) s.
Proof.
  intros [E [H1 H2]] Hf. unfold pjc, pokc. rewrite !pbind_unfold, <- E.
  destruct (m1 s) as [[a|e] s1]; cbn [fst snd] in *.
  - destruct (Hf a s1 eq_refl) as [E' [H3 H4]]. split; [exact E'|split; [exact H3|lia]].
  - split; [reflexivity|split; [congruence|exact H2]].
Qed.
Lemma pj_bind_ret {A B} n (m1 m2 : PM A) (f1 f2 : A -> PM B) (Q : A -> Prop) :
  pj n m1 m2 -> (forall s a s1, m1 s = (POk a, s1) -> Q a) -> (forall a, Q a -> pj n (f1 a) (f2 a)) ->
  pj n (pbind m1 f1) (pbind m2 f2).
Proof.
  intros Hm HQ Hf s Hs. apply pjc_bind; [apply Hm; exact Hs|]. intros a s1 E. apply (Hf a (HQ s a s1 E)).
  destruct (Hm s Hs) as [_ [_ Hle]]. rewrite E in Hle. cbn [snd] in Hle. lia.
Qed.
Lemma pj_bind {A B} n (m1 m2 : PM A) (f1 f2 : A -> PM B) :
  pj n m1 m2 -> (forall a, pj n (f1 a) (f2 a)) -> pj n (pbind m1 f1) (pbind m2 f2).
Proof. intros Hm Hf. apply (pj_bind_ret n m1 m2 f1 f2 (fun _ => True)); auto. Qed.
Lemma pjc_liftR {A} (m1 m2 : M A) s : okc m1 (rd s) -> m1 (rd s) = m2 (rd s) -> pjc (liftR m1) (liftR m2) s.
Proof.
  intros [H1 H2] E. unfold pjc, pokc, liftR. rewrite <- E.
  destruct (m1 (rd s)) as [[a|e] r']; cbn [fst snd rd] in *; (split; [reflexivity|split; [|exact H2]]); congruence.
Qed.
Lemma pj_liftR {A} n (m1 m2 : M A) : ok n m1 -> agree n m1 m2 -> pj n (liftR m1) (liftR m2).
Proof. intros Ho Ha s Hs. apply pjc_liftR; [apply Ho|apply Ha]; exact Hs. Qed.
Lemma liftR_ok {A} (m : M A) s a s1 : liftR m s = (POk a, s1) -> m (rd s) = (Ok a, rd s1).
Proof. unfold liftR. destruct (m (rd s)) as [[x|e] r1]; intros E; inversion E; reflexivity. Qed.

Lemma pok_mono {A} n n' (m : PM A) : (n <= n')%nat -> pok n' m -> pok n m.
Proof. intros H Hm s Hs. apply Hm. lia. Qed.
Lemma pok_pret {A} n (a : A) : pok n (pret a).
Proof. intros s _. split; [discriminate|cbn; lia]. Qed.
Lemma pok_panic {A} n k : pok n (@panic A k).
Proof. intros s _. split; [discriminate|cbn; lia]. Qed.
Lemma pok_liftR {A} n (m : M A) : ok n m -> pok n (liftR m).
Proof. intros H. apply (pj_pok n _ (liftR m)). apply pj_liftR; [exact H|apply agree_refl]. Qed.
Lemma pok_bind {A B} n (m : PM A) (f : A -> PM B) : pok n m -> (forall a, pok n (f a)) -> pok n (pbind m f).
Proof. intros Hm Hf. apply (pj_pok n _ (pbind m f)). apply pj_bind; [apply pj_refl; exact Hm|intros a; apply pj_refl; apply Hf]. Qed.
Lemma pok_get_depth n : pok n get_depth.
Proof. intros s _. split; [discriminate|cbn; lia]. Qed.
Lemma pok_set_depth n d : pok n (set_depth d).
Proof. intros s _. split; [discriminate|cbn; lia]. Qed.
Lemma pok_dec_depth n : pok n dec_depth.
Proof. unfold dec_depth. apply pok_bind; [apply pok_get_depth|]. intros d. destruct (d =? 0); [apply pok_panic|apply pok_set_depth]. Qed.
Lemma pok_inc_depth n : pok n inc_depth.
Proof. unfold inc_depth. apply pok_bind; [apply pok_get_depth|]. intros d. destruct (255 <=? d); [apply pok_panic|apply pok_set_depth]. Qed.
Lemma pok_err {A} n c : pok n (liftR (@peek_error A c)).
Proof. apply pok_liftR. apply ok_peek_error. Qed.
Lemma pok_enter_nesting n : pok n enter_nesting.
Proof.
  unfold enter_nesting. apply pok_bind; [apply pok_dec_depth|]. intros _. apply pok_bind; [apply pok_get_depth|]. intros d.
  destruct (d =? 0); [|apply pok_pret]. apply pok_bind; [apply pok_inc_depth|]. intros _. apply pok_err.
Qed.

(* attempt hands back every error but the fuel error, which it lets through *)
Lemma pj_attempt {A} n (m1 m2 : PM A) : pj n m1 m2 -> pj n (attempt m1) (attempt m2).
Proof.
  intros H s Hs. destruct (H s Hs) as [E [H1 H2]]. unfold pjc, pokc. rewrite !attempt_unfold, <- E.
  destruct (m1 s) as [[a|[[]|k]] s1]; cbn [fst snd] in *; (split; [reflexivity|split; [|exact H2]]); congruence.
Qed.
Lemma attempt_ret {A} (m : PM A) s r s1 : attempt m s = (POk r, s1) -> r <> Err EFuel.
Proof. rewrite attempt_unfold. destruct (m s) as [[a|[[]|k]] s2]; intros E; inversion E; discriminate. Qed.
Lemma pok_both {A} n (r : res A) (e : res unit) : r <> Err EFuel -> e <> Err EFuel -> pok n (both r e).
Proof. intros Hr He s _. destruct r as [a|e0]; destruct e as [u|e1]; (split; [cbn; congruence|cbn; lia]). Qed.
Lemma pok_lift {A} n (r : res A) : r <> Err EFuel -> pok n (lift r).
Proof. intros Hr s _. destruct r as [a|e0]; (split; [cbn; congruence|cbn; lia]). Qed.

Lemma pj_nest_seq {A B} n (body1 body2 : PM A) (end1 end2 : M unit) (k1 k2 : A -> PM B) :
  pj n body1 body2 -> ok n end1 -> agree n end1 end2 -> (forall a, pj n (k1 a) (k2 a)) ->
  pj n (pbind (attempt body1) (fun r => pbind inc_depth (fun _ => pbind (attempt (liftR end1)) (fun e => pbind (both r e) k1))))
       (pbind (attempt body2) (fun r => pbind inc_depth (fun _ => pbind (attempt (liftR end2)) (fun e => pbind (both r e) k2)))).
Proof.
  intros Hb Ho Ha Hk.
  apply (pj_bind_ret _ _ _ _ _ (fun r => r <> Err EFuel)); [apply pj_attempt; exact Hb|intros s; apply attempt_ret|intros r Hr].
  apply pj_bind; [apply pj_refl, pok_inc_depth|intros _].
  apply (pj_bind_ret _ _ _ _ _ (fun e => e <> Err EFuel)); [apply pj_attempt, pj_liftR; assumption|intros s; apply attempt_ret|intros e He].
  apply pj_bind; [apply pj_refl, pok_both; assumption|exact Hk].
Qed.
Lemma pj_nest_quote {A B} n (body1 body2 : PM A) (k1 k2 : A -> PM B) :
  pj n body1 body2 -> (forall a, pj n (k1 a) (k2 a)) ->
  pj n (pbind (attempt body1) (fun r => pbind inc_depth (fun _ => pbind (lift r) k1)))
       (pbind (attempt body2) (fun r => pbind inc_depth (fun _ => pbind (lift r) k2))).
Proof.
  intros Hb Hk.
  apply (pj_bind_ret _ _ _ _ _ (fun r => r <> Err EFuel)); [apply pj_attempt; exact Hb|intros s; apply attempt_ret|intros r Hr].
  apply pj_bind; [apply pj_refl, pok_inc_depth|intros _]. apply pj_bind; [apply pj_refl, pok_lift; exact Hr|exact Hk].
Qed.

Definition pjs {A} (m1 m2 : PM A) (s : pstate) : Prop :=
  pjc m1 m2 s /\ match m1 s with (POk _, s') => (rem (rd s') < rem (rd s))%nat | _ => True end.
Lemma pjs_bind_strict {A B} n (m1 m2 : M A) (f1 f2 : A -> PM B) s : (rem (rd s) <= n)%nat ->
  okc m1 (rd s) -> m1 (rd s) = m2 (rd s) -> match m1 (rd s) with (Ok _, r') => (rem r' < rem (rd s))%nat | _ => True end ->
  (forall a n', n = S n' -> pj n' (f1 a) (f2 a)) -> pjs (pbind (liftR m1) f1) (pbind (liftR m2) f2) s.
Proof.
  intros Hs Hok E Hlt Hf.
  assert (Hk : forall a s1, liftR m1 s = (POk a, s1) -> (rem (rd s1) < rem (rd s))%nat /\ pjc (f1 a) (f2 a) s1).
  { intros a s1 E1. apply liftR_ok in E1. rewrite E1 in Hlt. split; [exact Hlt|].
    destruct n as [|n']; [lia|]. apply (Hf a n' eq_refl). lia. }
  split; [apply pjc_bind; [apply pjc_liftR; assumption|intros a s1 E1; apply Hk; exact E1]|].
  rewrite pbind_unfold. destruct (liftR m1 s) as [[a|e] s1]; [|exact I]. destruct (Hk a s1 eq_refl) as [Hl [_ [_ Hle]]].
  destruct (f1 a s1) as [[x|e] s2]; [cbn [snd] in Hle; lia|exact I].
Qed.
Lemma pok_bind_strict {A B} n (m : M A) (f : A -> PM B) :
  ok n m -> stricto n m -> (forall a n', n = S n' -> pok n' (f a)) -> pok n (pbind (liftR m) f).
Proof.
  intros Hm Hs Hf s Hr.
  apply (pjs_bind_strict n m m f f s Hr (Hm _ Hr) eq_refl (Hs _ Hr)). intros a n' E. apply pj_refl. apply Hf. exact E.
Qed.
Lemma pjat_bind_eat {A B} b n (m : M A) (k1 k2 : A -> PM B) :
  (forall n', ok n' m) -> (forall a n', n = S n' -> pj n' (k1 a) (k2 a)) ->
  pjat b n (pbind (liftR (eat_char ;;; m)) k1) (pbind (liftR (eat_char ;;; m)) k2).
Proof.
  intros Hm Hk s Hb Hs. pose proof (discard_at b (rd s) Hb) as Hd.
  destruct (Hm _ (r_discard (rd s)) (le_n _)) as [H1 H2].
  refine (proj1 (pjs_bind_strict n _ _ k1 k2 s Hs _ eq_refl _ Hk)).
  - split; [exact H1|]. change (rem (snd (m (r_discard (rd s)))) <= rem (rd s))%nat. lia.
  - change (match m (r_discard (rd s)) with (Ok _, r') => (rem r' < rem (rd s))%nat | (Err _, _) => True end).
    destruct (m (r_discard (rd s))) as [[a|e] r1]; [cbn [snd] in H2; lia|exact I].
Qed.
Lemma pj_bind_item {A B} n (m1 m2 : PM (option A)) (k1 k2 : option A -> PM B) :
  pjv n m1 m2 -> pj n (k1 None) (k2 None) -> (forall a n', n = S n' -> pj n' (k1 (Some a)) (k2 (Some a))) ->
  pj n (pbind m1 k1) (pbind m2 k2).
Proof.
  intros Hm Hnone Hsome s Hs. destruct (Hm s Hs) as [Hc Hi]. apply pjc_bind; [exact Hc|]. intros o s1 E.
  unfold item_strict in Hi. destruct Hc as [_ [_ Hle]]. rewrite E in Hi, Hle. cbn [snd] in Hle.
  destruct o as [a|]; [|apply Hnone; lia]. destruct n as [|n']; [lia|]. apply (Hsome a n' eq_refl). lia.
Qed.

Definition agrees {A} (fr : nat -> nat -> Prop) (k : nat) (F : nat -> M A) : Prop :=
  forall f g n, fr f g -> (k + n < f)%nat -> agree n (F f) (F g).

Lemma agrees_eq {A} k (F : nat -> M A) : agrees eq k F.
Proof. intros f g n <- _. apply agree_refl. Qed.

Lemma init_rem k inp : (rem (rd (init_state k inp)) <= length inp)%nat.
Proof. unfold init_state, mk_reader, rem. cbn [rd rinput]. lia. Qed.

Lemma pj_bind_ws {A} fuel n (ws2 : M (option N)) (k1 k2 : option N -> PM A) : (S n < fuel)%nat ->
  agree n (parse_whitespace fuel) ws2 -> pj n (k1 None) (k2 None) -> (forall b, pjat b n (k1 (Some b)) (k2 (Some b))) ->
  pj n (pbind (liftR (parse_whitespace fuel)) k1) (pbind (liftR ws2) k2).
Proof.
  intros Hn Ha Hnone Hsome s Hs. pose proof (ok_parse_whitespace fuel n Hn (rd s) Hs) as Hok.
  apply pjc_bind; [apply pjc_liftR; [exact Hok|apply Ha; exact Hs]|]. intros o s1 E. apply liftR_ok in E.
  pose proof (ws_at_byte fuel (rd s)) as Hb. destruct Hok as [_ Hle]. rewrite E in Hb, Hle. cbn [snd] in Hle.
  destruct o as [b|]; [apply Hsome; [exact Hb|lia]|apply Hnone; lia].
Qed.
Lemma pjv_shape {A} fuel n (ws2 : M (option N)) (K1 K2 : N -> PM (option A)) : (S n < fuel)%nat ->
  agree n (parse_whitespace fuel) ws2 ->
  (forall b s, at_byte b (rd s) -> (rem (rd s) <= n)%nat -> pjs (K1 b) (K2 b) s) ->
  pjv n (pbind (liftR (parse_whitespace fuel)) (fun o => match o with None => pret None | Some b => K1 b end))
        (pbind (liftR ws2) (fun o => match o with None => pret None | Some b => K2 b end)).
Proof.
  intros Hn Ha HK s Hs. split.
  - revert s Hs. apply pj_bind_ws; [exact Hn|exact Ha|apply pj_refl, pok_pret|]. intros b s Hb Hs. apply HK; assumption.
  - unfold item_strict. rewrite pbind_unfold.
    destruct (ok_parse_whitespace fuel n Hn (rd s) Hs) as [_ Hle]. pose proof (ws_at_byte fuel (rd s)) as Hb.
    destruct (liftR (parse_whitespace fuel) s) as [[[b|]|e] s1] eqn:E; try exact I. apply liftR_ok in E. rewrite E in Hb, Hle. cbn [snd] in Hle.
    destruct (HK b s1 Hb ltac:(lia)) as [_ Hlt]. destruct (K1 b s1) as [[[a|]|e] s2]; try exact I. lia.
Qed.
Lemma fuel_for_enough inp : (2 * length inp + 3 <= fuel_for inp)%nat /\ (S (length inp) < fuel_for inp)%nat.
Proof. unfold fuel_for. lia. Qed.

Section ParserFuel.
  Variable ro : parse_options.
  Variable alpha : N -> bool.
  Variable fast : bool.
  Variable std_parse : N -> Z -> f64.
  Hypothesis Hfp : forall pos sig e n, sig <= u64_MAX -> ok n (f64_from_parts fast std_parse pos sig e).

  Local Notation next_value := (next_value ro alpha fast std_parse).
  Local Notation parse_list := (parse_list ro alpha fast std_parse).
  Local Notation parse_vector := (parse_vector ro alpha fast std_parse).
  Local Notation next_datum := (next_datum ro alpha fast std_parse).
  Local Notation parse_list_meta := (parse_list_meta ro alpha fast std_parse).
  Local Notation parse_vector_meta := (parse_vector_meta ro alpha fast std_parse).
  Local Notation parse_token := (parse_token ro alpha fast std_parse).
  Local Notation parse_byte_list := (parse_byte_list fast std_parse).

  Definition pokat {A} (b : N) (n : nat) (m : PM A) : Prop :=
    forall s, at_byte b (rd s) -> (rem (rd s) <= n)%nat -> pokc m s.

  Lemma token_then {A} fuel b n (tok2 : M token) (k1 k2 : token -> PM A) s :
    (n < fuel)%nat -> at_byte b (rd s) -> (rem (rd s) <= n)%nat -> agree n (parse_token fuel b) tok2 ->
    (forall tok n', n = S n' -> pj n' (k1 tok) (k2 tok)) ->
    pjs (pbind (liftR (parse_token fuel b)) k1) (pbind (liftR tok2) k2) s.
  Proof.
    intros Hn Hb Hs Ha Hk.
    exact (pjs_bind_strict n _ _ k1 k2 s Hs (ok_parse_token ro alpha fast std_parse Hfp fuel b n Hn (rd s) Hs) (Ha _ Hs)
             (token_consumes ro alpha fast std_parse fuel b (rd s) Hb) Hk).
  Qed.
  Lemma pokat_bind_token {A} fuel b n (k : token -> PM A) : (n < fuel)%nat ->
    (forall tok n', n = S n' -> pok n' (k tok)) -> pokat b n (pbind (liftR (parse_token fuel b)) k).
  Proof.
    intros Hn Hk s Hb Hs. apply (token_then fuel b n (parse_token fuel b) k k s Hn Hb Hs (agree_refl _ _)).
    intros tok n' E. apply pj_refl. apply Hk. exact E.
  Qed.
  Lemma pjs_position {A} (k1 k2 : N * N -> PM A) s :
    (forall p, pjs (k1 p) (k2 p) s) -> pjs (pbind (liftR position) k1) (pbind (liftR position) k2) s.
  Proof. intros H. destruct s as [r d]. exact (H (r_position r)). Qed.
  Lemma pjat_bind_position {A} b n (k1 k2 : N * N -> PM A) :
    (forall p, pjat b n (k1 p) (k2 p)) -> pjat b n (pbind (liftR position) k1) (pbind (liftR position) k2).
  Proof. intros H s Hb Hs. destruct s as [r d]. exact (H (r_position r) _ Hb Hs). Qed.

  Lemma pok_position_then {A} n (k : N * N -> PM A) : (forall p, pok n (k p)) -> pok n (pbind (liftR position) k).
  Proof. intros Hk. apply pok_bind; [apply pok_liftR; apply ok_position|exact Hk]. Qed.

  (* The second run's fuel is related to the first's by fr: equal to it below, at least as much in FuelMono. *)
  Section TwoRuns.
    Variable fr : nat -> nat -> Prop.
    Hypothesis fr_S : forall f g', fr (S f) g' -> exists g, g' = S g /\ fr f g.
    Hypothesis Hws : agrees fr 1 parse_whitespace.
    Hypothesis Htok : forall b, agrees fr 0 (fun f => parse_token f b).
    Hypothesis Hend : forall c, agrees fr 1 (fun f => end_seq f c).
    Hypothesis Hbl : forall c, agrees fr 2 (fun f => parse_byte_list f c).
    Hypothesis Hsuf : forall p, agrees fr 0 (fun f => parse_symbol_suffix f p).

    (* 2n+3 / 2n+4: an event can cost two units of fuel, one for the list or vector iteration that reaches it
       and one for the next_value call that reads it; the constant pays for the calls that read nothing
       (whitespace, a closer, end_seq) *)
    Theorem both_values fuel : forall fuel2, fr fuel fuel2 ->
      (forall n, (2 * n + 3 <= fuel)%nat -> pjv n (next_value fuel) (next_value fuel2)) /\
      (forall n t acc, (2 * n + 4 <= fuel)%nat -> pj n (parse_list fuel t acc) (parse_list fuel2 t acc)) /\
      (forall n t acc, (2 * n + 4 <= fuel)%nat -> pj n (parse_vector fuel t acc) (parse_vector fuel2 t acc)).
    Proof.
      induction fuel as [|f IH]; intros fuel2 Hfr; [split; [intros n Hn; lia|split; intros n t acc Hn; lia]|].
      destruct (fr_S f fuel2 Hfr) as (g & -> & Hg). destruct (IH g Hg) as (IHv & IHl & IHvec). clear IH.
      split; [|split].
      - intros n Hn. cbn [Parser.next_value]. fold next_value parse_list parse_vector.
        apply (pjv_shape f n); [lia|apply Hws; [exact Hg|lia]|]. intros b s Hb Hs.
        apply (token_then f b n); [lia|exact Hb|exact Hs|apply Htok; [exact Hg|lia]|]. intros tok n' Hn'.
        destruct tok; try (apply pj_refl, pok_pret).
        + (* list *)
          apply pj_bind; [apply pj_refl, pok_enter_nesting|intros _].
          apply pj_nest_seq; [apply IHl; lia|apply ok_end_seq; lia|apply Hend; [exact Hg|lia]|intros l; apply pj_refl, pok_pret].
        + (* quotation *)
          apply pj_bind; [apply pj_refl, pok_enter_nesting|intros _].
          apply pj_nest_quote; [apply pjv_pj, IHv; lia|]. intros o. apply pj_refl. destruct o; [apply pok_pret|apply pok_err].
        + (* vector *)
          apply pj_bind; [apply pj_refl, pok_enter_nesting|intros _].
          apply pj_nest_seq; [apply IHvec; lia|apply ok_end_seq; lia|apply Hend; [exact Hg|lia]|intros l; apply pj_refl, pok_pret].
        + (* byte vector *)
          apply pj_bind; [apply pj_liftR; [apply (ok_parse_byte_list fast std_parse Hfp); lia|apply Hbl; [exact Hg|lia]]|intros; apply pj_refl, pok_pret].
      - intros n t acc Hn. cbn [Parser.parse_list]. fold next_value parse_list parse_vector.
        apply pj_bind_ws; [lia|apply Hws; [exact Hg|lia]|apply pj_refl, pok_err|]. intros c.
        destruct (is_closer c). { apply pjat_weaken, pj_refl. destruct (negb (c =? t)); [apply pok_err|apply pok_pret]. }
        destruct (c =? 46).
        + apply pjat_bind_eat; [apply ok_peek|]. intros nx n' Hn'. destruct (lone_dot nx).
          * destruct acc as [|a0 acc'].
            -- apply pj_refl. apply pok_bind; [apply pok_liftR; apply ok_peek|]. intros o3. destruct o3; apply pok_err.
            -- apply pj_bind_item; [apply IHv; lia|apply pj_refl, pok_err|]. intros cdr n'' Hn''.
               apply pj_bind; [apply pj_liftR; [apply ok_parse_whitespace; lia|apply Hws; [exact Hg|lia]]|]. intros o2.
               apply pj_refl. destruct o2 as [c2|]; [destruct (c2 =? t); [apply pok_pret|apply pok_err]|apply pok_err].
          * apply pj_bind; [apply pj_liftR; [apply ok_parse_symbol_suffix; lia|apply Hsuf; [exact Hg|lia]]|]. intros name. apply IHl. lia.
        + apply pjat_weaken. apply pj_bind_item; [apply IHv; lia|apply pj_refl, pok_err|]. intros v n' Hn'. apply IHl. lia.
      - intros n t acc Hn. cbn [Parser.parse_vector]. fold next_value parse_list parse_vector.
        apply pj_bind_ws; [lia|apply Hws; [exact Hg|lia]|apply pj_refl, pok_err|]. intros c.
        destruct (is_closer c). { apply pjat_weaken, pj_refl. destruct (negb (c =? t)); [apply pok_err|apply pok_pret]. }
        apply pjat_weaken. apply pj_bind_item; [apply IHv; lia|apply pj_refl, pok_err|]. intros v n' Hn'. apply IHvec. lia.
    Qed.

    Theorem both_datums fuel : forall fuel2, fr fuel fuel2 ->
      (forall n, (2 * n + 3 <= fuel)%nat -> pjv n (next_datum fuel) (next_datum fuel2)) /\
      (forall n t acc, (2 * n + 4 <= fuel)%nat -> pj n (parse_list_meta fuel t acc) (parse_list_meta fuel2 t acc)) /\
      (forall n t acc, (2 * n + 4 <= fuel)%nat -> pj n (parse_vector_meta fuel t acc) (parse_vector_meta fuel2 t acc)).
    Proof.
      induction fuel as [|f IH]; intros fuel2 Hfr; [split; [intros n Hn; lia|split; intros n t acc Hn; lia]|].
      destruct (fr_S f fuel2 Hfr) as (g & -> & Hg). destruct (IH g Hg) as (IHv & IHl & IHvec). clear IH.
      split; [|split].
      - intros n Hn. cbn [Parser.next_datum]. fold next_datum parse_list_meta parse_vector_meta.
        apply (pjv_shape f n); [lia|apply Hws; [exact Hg|lia]|]. intros b s Hb Hs. apply pjs_position. intros start.
        apply (token_then f b n); [lia|exact Hb|exact Hs|apply Htok; [exact Hg|lia]|]. intros tok n' Hn'. cbv zeta.
        destruct tok; try (apply pj_refl, pok_position_then; intros; apply pok_pret).
        + (* list *)
          apply pj_bind; [apply pj_refl, pok_enter_nesting|intros _].
          apply pj_nest_seq; [apply IHl; lia|apply ok_end_seq; lia|apply Hend; [exact Hg|lia]|].
          intros l. apply pj_refl, pok_position_then. intros; apply pok_pret.
        + (* quotation *)
          apply pj_bind; [apply pj_refl, pok_liftR, ok_position|intros token_end].
          apply pj_bind; [apply pj_refl, pok_enter_nesting|intros _].
          apply pj_nest_quote; [apply pjv_pj, IHv; lia|]. intros o. apply pj_refl. destruct o; [apply pok_pret|apply pok_err].
        + (* vector *)
          apply pj_bind; [apply pj_refl, pok_enter_nesting|intros _].
          apply pj_nest_seq; [apply IHvec; lia|apply ok_end_seq; lia|apply Hend; [exact Hg|lia]|].
          intros l. apply pj_refl, pok_position_then. intros; apply pok_pret.
        + (* byte vector *)
          apply pj_bind; [apply pj_liftR; [apply (ok_parse_byte_list fast std_parse Hfp); lia|apply Hbl; [exact Hg|lia]]|].
          intros. apply pj_refl, pok_position_then. intros; apply pok_pret.
      - intros n t acc Hn. cbn [Parser.parse_list_meta]. fold next_datum parse_list_meta parse_vector_meta.
        apply pj_bind_ws; [lia|apply Hws; [exact Hg|lia]|apply pj_refl, pok_err|]. intros c.
        destruct (is_closer c). { apply pjat_weaken, pj_refl. destruct (negb (c =? t)); [apply pok_err|apply pok_pret]. }
        destruct (c =? 46).
        + apply pjat_bind_position. intros start. apply pjat_bind_eat; [apply ok_peek|]. intros nx n' Hn'. destruct (lone_dot nx).
          * destruct acc as [|a0 acc'].
            -- apply pj_refl. apply pok_bind; [apply pok_liftR; apply ok_peek|]. intros o3. destruct o3; apply pok_err.
            -- apply pj_bind_item; [apply IHv; lia|apply pj_refl, pok_err|]. intros cdr n'' Hn''.
               apply pj_bind; [apply pj_liftR; [apply ok_parse_whitespace; lia|apply Hws; [exact Hg|lia]]|]. intros o2.
               apply pj_refl. destruct o2 as [c2|]; [destruct (c2 =? t); [apply pok_pret|apply pok_err]|apply pok_err].
          * apply pj_bind; [apply pj_liftR; [apply ok_parse_symbol_suffix; lia|apply Hsuf; [exact Hg|lia]]|]. intros name.
            apply pj_bind; [apply pj_refl, pok_liftR, ok_position|]. intros e. apply IHl. lia.
        + apply pjat_weaken. apply pj_bind_item; [apply IHv; lia|apply pj_refl, pok_err|]. intros v n' Hn'. apply IHl. lia.
      - intros n t acc Hn. cbn [Parser.parse_vector_meta]. fold next_datum parse_list_meta parse_vector_meta.
        apply pj_bind_ws; [lia|apply Hws; [exact Hg|lia]|apply pj_refl, pok_err|]. intros c.
        destruct (is_closer c). { apply pjat_weaken, pj_refl. destruct (negb (c =? t)); [apply pok_err|apply pok_pret]. }
        apply pjat_weaken. apply pj_bind_item; [apply IHv; lia|apply pj_refl, pok_err|]. intros v n' Hn'. apply IHvec. lia.
    Qed.
  End TwoRuns.

  Lemma pjv_same {A} n (m : PM (option A)) : pjv n m m -> pokv n m.
  Proof. intros H s Hs. destruct (H s Hs) as [[_ Hc] Hi]. split; assumption. Qed.
  Theorem fuel_values fuel :
    (forall n, (2 * n + 3 <= fuel)%nat -> pokv n (next_value fuel)) /\
    (forall n t acc, (2 * n + 4 <= fuel)%nat -> pok n (parse_list fuel t acc)) /\
    (forall n t acc, (2 * n + 4 <= fuel)%nat -> pok n (parse_vector fuel t acc)).
  Proof.
    destruct (both_values eq) with (fuel := fuel) (fuel2 := fuel) as (Hv & Hl & Hvec);
      [intros f g' <-; exists f; split; reflexivity|first [apply agrees_eq | intros ?; apply agrees_eq]..|reflexivity|].
    split; [intros n Hn; apply pjv_same, Hv; exact Hn|]. split; intros n t acc Hn; [exact (pj_pok n _ _ (Hl n t acc Hn))|exact (pj_pok n _ _ (Hvec n t acc Hn))].
  Qed.
  Theorem fuel_datums fuel :
    (forall n, (2 * n + 3 <= fuel)%nat -> pokv n (next_datum fuel)) /\
    (forall n t acc, (2 * n + 4 <= fuel)%nat -> pok n (parse_list_meta fuel t acc)) /\
    (forall n t acc, (2 * n + 4 <= fuel)%nat -> pok n (parse_vector_meta fuel t acc)).
  Proof.
    destruct (both_datums eq) with (fuel := fuel) (fuel2 := fuel) as (Hv & Hl & Hvec);
      [intros f g' <-; exists f; split; reflexivity|first [apply agrees_eq | intros ?; apply agrees_eq]..|reflexivity|].
    split; [intros n Hn; apply pjv_same, Hv; exact Hn|]. split; intros n t acc Hn; [exact (pj_pok n _ _ (Hl n t acc Hn))|exact (pj_pok n _ _ (Hvec n t acc Hn))].
  Qed.

  Definition not_fuel {A} (r : pres A) : Prop := r <> PErr (XErr EFuel).

  Lemma pok_expect_value fuel n : (2 * n + 3 <= fuel)%nat -> pok n (expect_value ro alpha fast std_parse fuel).
  Proof.
    intros Hn. unfold expect_value. apply pok_bind; [intros s Hs; apply (proj1 (fuel_values fuel) n Hn s Hs)|].
    intros o. destruct o; [apply pok_pret|apply pok_err].
  Qed.
  Lemma pok_expect_datum fuel n : (2 * n + 3 <= fuel)%nat -> pok n (expect_datum ro alpha fast std_parse fuel).
  Proof.
    intros Hn. unfold expect_datum. apply pok_bind; [intros s Hs; apply (proj1 (fuel_datums fuel) n Hn s Hs)|].
    intros o. destruct o; [apply pok_pret|apply pok_err].
  Qed.
  Lemma pok_expect_end fuel n : (S n < fuel)%nat -> pok n (expect_end_p fuel).
  Proof. intros Hn. unfold expect_end_p. apply pok_liftR. apply ok_expect_end. exact Hn. Qed.

  Theorem from_trait_not_fuel k inp : not_fuel (from_trait ro alpha fast std_parse k inp).
  Proof.
    unfold from_trait, not_fuel. cbv zeta. destruct (fuel_for_enough inp) as [H1 H2].
    refine (proj1 (pok_bind (length inp) _ _ (pok_expect_value _ _ H1) _ (init_state k inp) _)).
    - intros v. apply pok_bind; [apply pok_expect_end; exact H2|intros; apply pok_pret].
    - apply init_rem.
  Qed.
  Theorem datum_from_trait_not_fuel k inp : not_fuel (datum_from_trait ro alpha fast std_parse k inp).
  Proof.
    unfold datum_from_trait, not_fuel. cbv zeta. destruct (fuel_for_enough inp) as [H1 H2].
    refine (proj1 (pok_bind (length inp) _ _ (pok_expect_datum _ _ H1) _ (init_state k inp) _)).
    - intros v. apply pok_bind; [apply pok_expect_end; exact H2|intros; apply pok_pret].
    - apply init_rem.
  Qed.

  Lemma call_pok {A} (m : PM A) (wrap : A -> call_result) s : pokc m s -> (forall a e, wrap a <> RErr e) ->
    let rs := match m s with (POk a, s') => (wrap a, s') | (PErr e, s') => (RErr e, s') end in
    ~ call_fuel (fst rs) /\ (rem (rd (snd rs)) <= rem (rd s))%nat.
  Proof.
    intros [H1 H2] Hw. unfold call_fuel. destruct (m s) as [[a|e] s1]; cbn [fst snd] in *; (split; [|exact H2]); [apply Hw|congruence].
  Qed.
  Lemma run_call_fuel fuel n c s : (2 * n + 3 <= fuel)%nat -> (rem (rd s) <= n)%nat ->
    ~ call_fuel (fst (run_call ro alpha fast std_parse fuel c s)) /\
    (rem (rd (snd (run_call ro alpha fast std_parse fuel c s))) <= rem (rd s))%nat.
  Proof.
    intros Hn Hs. destruct c; cbn [run_call].
    - apply (call_pok _ RValue); [apply (proj1 (fuel_values fuel) n Hn s Hs)|discriminate].
    - apply (call_pok _ RDatum); [apply (proj1 (fuel_datums fuel) n Hn s Hs)|discriminate].
    - apply (call_pok _ (fun v => RValue (Some v))); [apply (pok_expect_value fuel n Hn s Hs)|discriminate].
    - apply (call_pok _ (fun d => RDatum (Some d))); [apply (pok_expect_datum fuel n Hn s Hs)|discriminate].
    - apply (call_pok _ (fun _ => RUnit)); [apply (pok_expect_end fuel n ltac:(lia) s Hs)|discriminate].
  Qed.
  Theorem history_fuel fuel n cs : forall s, (2 * n + 3 <= fuel)%nat -> (rem (rd s) <= n)%nat ->
    Forall (fun r => ~ call_fuel r) (run_history ro alpha fast std_parse fuel cs s).
  Proof.
    induction cs as [|c cs IH]; intros s Hn Hs; cbn [run_history]; [constructor|].
    pose proof (run_call_fuel fuel n c s Hn Hs) as [H1 H2].
    destruct (run_call ro alpha fast std_parse fuel c s) as [r s1]. cbn [fst snd] in *.
    constructor; [exact H1|apply IH; [exact Hn|lia]].
  Qed.
  Theorem iterate_values_fuel fuel n k : forall s, (2 * n + 3 <= fuel)%nat -> (rem (rd s) <= n)%nat ->
    Forall not_fuel (iterate_values ro alpha fast std_parse fuel k s).
  Proof.
    induction k as [|k IH]; intros s Hn Hs; cbn [iterate_values]; [constructor|].
    destruct (proj1 (proj1 (fuel_values fuel) n Hn s Hs)) as [H1 H2].
    destruct (Parser.next_value ro alpha fast std_parse fuel s) as [[[v|]|e] s1]; cbn [fst snd] in *; [| constructor |].
    - constructor; [discriminate|apply IH; [exact Hn|lia]].
    - constructor; [intros E; apply H1; inversion E; reflexivity|apply IH; [exact Hn|lia]].
  Qed.
  Theorem iterate_datums_fuel fuel n k : forall s, (2 * n + 3 <= fuel)%nat -> (rem (rd s) <= n)%nat ->
    Forall not_fuel (iterate_datums ro alpha fast std_parse fuel k s).
  Proof.
    induction k as [|k IH]; intros s Hn Hs; cbn [iterate_datums]; [constructor|].
    destruct (proj1 (proj1 (fuel_datums fuel) n Hn s Hs)) as [H1 H2].
    destruct (Parser.next_datum ro alpha fast std_parse fuel s) as [[[v|]|e] s1]; cbn [fst snd] in *; [| constructor |].
    - constructor; [discriminate|apply IH; [exact Hn|lia]].
    - constructor; [intros E; apply H1; inversion E; reflexivity|apply IH; [exact Hn|lia]].
  Qed.

  (* successful items are paid for in input: an iteration cannot return more
     values than there are events left *)
  Definition is_okb {A} (r : pres A) : bool := match r with POk _ => true | PErr _ => false end.
  Theorem iterate_values_count fuel n k : forall s, (2 * n + 3 <= fuel)%nat -> (rem (rd s) <= n)%nat ->
    (length (filter is_okb (iterate_values ro alpha fast std_parse fuel k s)) <= rem (rd s))%nat.
  Proof.
    induction k as [|k IH]; intros s Hn Hs; cbn [iterate_values]; [cbn; lia|].
    destruct (proj1 (fuel_values fuel) n Hn s Hs) as [[H1 H2] H3]. unfold item_strict in H3.
    destruct (Parser.next_value ro alpha fast std_parse fuel s) as [[[v|]|e] s1]; cbn [fst snd filter is_okb length] in *; [|lia|].
    - specialize (IH s1 Hn ltac:(lia)). lia.
    - specialize (IH s1 Hn ltac:(lia)). lia.
  Qed.
  Theorem iterate_datums_count fuel n k : forall s, (2 * n + 3 <= fuel)%nat -> (rem (rd s) <= n)%nat ->
    (length (filter is_okb (iterate_datums ro alpha fast std_parse fuel k s)) <= rem (rd s))%nat.
  Proof.
    induction k as [|k IH]; intros s Hn Hs; cbn [iterate_datums]; [cbn; lia|].
    destruct (proj1 (fuel_datums fuel) n Hn s Hs) as [[H1 H2] H3]. unfold item_strict in H3.
    destruct (Parser.next_datum ro alpha fast std_parse fuel s) as [[[v|]|e] s1]; cbn [fst snd filter is_okb length] in *; [|lia|].
    - specialize (IH s1 Hn ltac:(lia)). lia.
    - specialize (IH s1 Hn ltac:(lia)). lia.
  Qed.
End ParserFuel.
