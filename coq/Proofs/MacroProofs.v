(* C09: the macro's parser reads the documented spelling of a value, as Rust
   token trees, to code that evaluates to that value. *)
From Coq Require Import SpecFloat Lia.
Require Import Base Value Float NumberOps ListOps Macro.
Require Import RoundtripProofs.

Section Spelling.
  (* whether a name can be written as a Rust identifier: decided by the Rust
     lexer, an oracle here; the theorem holds whatever it answers *)
  Variable is_ident : bytes -> bool.

  (* a punctuation-only symbol written bare: one Punct token per character,
     joint except the last. Not the three that mean something else to the macro
     when they stand alone: "-" (a sign before a number), ":" (a keyword
     marker) and "." (the dot of a dotted list) - those are spelled #"...". *)
  Fixpoint punct_spell (s : bytes) : list tt :=
    match s with
    | [] => []
    | [c] => [Punct c Alone]
    | c :: s' => Punct c Joint :: punct_spell s'
    end.
  Definition bare_punct (s : bytes) : bool :=
    match s with
    | [] => false
    | [c] => ident_start_punct c && negb (c =? 45) && negb (c =? 58) && negb (c =? 46)
    | c :: s' => ident_start_punct c && forallb ident_cont_punct s'
    end.

  Definition spell_name (s : bytes) : list tt :=
    if is_ident s then [Ident s] else [Lit (LStr s s)].

  Definition float_sign (f : f64) : bool :=
    match f with S754_zero s | S754_infinity s | S754_finite s _ _ => s | S754_nan => false end.

  Definition spell_number (n : number) : list tt :=
    match n with
    | PosInt u => [Lit (LInt u)]
    | NegInt i => [Punct 45 Alone; Lit (LInt (Z.to_N (- i)))]
    | Float f => if float_sign f then [Punct 45 Alone; Lit (LFloat (f64_neg f))] else [Lit (LFloat f)]
    end.

  Definition spell_atom (v : value) : list tt :=
    match v with
    | Nil => [Punct 35 Alone; Ident (s2b "nil")]
    | Bool b => [Punct 35 Alone; Ident (if b then s2b "t" else s2b "f")]
    | Number n => spell_number n
    | Char c => [Lit (LChar c)]
    | String s => [Lit (LStr s s)]
    | Symbol s => if is_ident s then [Ident s] else if bare_punct s then punct_spell s else [Punct 35 Alone; Lit (LStr s s)]
    | Keyword s => Punct 35 Joint :: Punct 58 Alone :: spell_name s
    | _ => []
    end.

  Fixpoint spell (v : value) : list tt :=
    match v with
    | Null => [Group Paren []]
    | Cons a d => [Group Paren (spell a ++ spell_tail d)]
    | Vector l => [Punct 35 Alone;
                   Group Paren ((fix elems (l : list value) : list tt :=
                                   match l with [] => [] | x :: l' => spell x ++ elems l' end) l)]
    | _ => spell_atom v
    end
  with spell_tail (d : value) : list tt :=
    match d with
    | Null => []
    | Cons a d' => spell a ++ spell_tail d'
    | Vector l => Punct 46 Alone :: [Punct 35 Alone;
                   Group Paren ((fix elems (l : list value) : list tt :=
                                   match l with [] => [] | x :: l' => spell x ++ elems l' end) l)]
    | _ => Punct 46 Alone :: spell_atom d
    end.

  Lemma spell_tail_noncons d : is_cons d = false -> is_null d = false -> spell_tail d = Punct 46 Alone :: spell d.
  Proof. destruct d; try discriminate; reflexivity. Qed.

  Definition spell_elems : list value -> list tt :=
    fix elems (l : list value) : list tt := match l with [] => [] | x :: l' => spell x ++ elems l' end.

  (* the values the macro documents: no byte vectors; negative integers as a
     minus sign and a literal *)
  Fixpoint cok (v : value) : Prop :=
    match v with
    | Bytes _ => False
    | Number (NegInt i) => (i < 0)%Z
    | Cons a d => cok a /\ cok d
    | Vector l => (fix all (l : list value) : Prop := match l with [] => True | x :: l' => cok x /\ all l' end) l
    | _ => True
    end.
  Definition all_cok : list value -> Prop :=
    fix all (l : list value) : Prop := match l with [] => True | x :: l' => cok x /\ all l' end.

  Variable ev : tt -> value.

  Definition not_list (m : mvalue) : Prop := match m with MList _ | MImproper _ _ => False | _ => True end.

  Lemma tts_size_app a b : tts_size (a ++ b) = (tts_size a + tts_size b)%nat.
  Proof. clear ev. unfold tts_size. induction a as [|x a IH]; cbn [app fold_right]; [reflexivity|]. rewrite IH. lia. Qed.

  Lemma SFopp_invol f : f64_neg (f64_neg f) = f.
  Proof. destruct f as [s|s| |s m e]; cbn; try reflexivity; destruct s; reflexivity. Qed.

  Definition PV (v : value) : Prop :=
    forall fuel rest, cok v -> (2 * tts_size (spell v) <= fuel)%nat ->
      exists m, mparse fuel (spell v ++ rest) = MOk (m, rest) /\ meval ev m = v /\
                (is_cons v = false -> is_null v = false -> not_list m).

  Lemma spell_size_pos v : cok v -> (1 <= tts_size (spell v))%nat.
  Proof.
    destruct v as [| |b|n|c|s|s|s|bs|a d|l]; cbn [spell spell_atom cok]; intros H; try (cbn; lia); try contradiction.
    - destruct n as [u|i|f]; cbn [spell_number]; [cbn; lia|cbn; lia|destruct (float_sign f); cbn; lia].
    - destruct (is_ident s); [cbn; lia|]. destruct (bare_punct s) eqn:Eb; [|cbn; lia].
      destruct s as [|c [|c2 s2]]; [discriminate|cbn; lia|cbn [punct_spell tts_size fold_right tt_size]; lia].
  Qed.

  Lemma mparse_lit f l rest : mparse (S f) (Lit l :: rest) = MOk (MLiteral l, rest).
  Proof. reflexivity. Qed.
  Lemma mparse_neg f l rest : is_numeric_lit l = true ->
    mparse (S f) (Punct 45 Alone :: Lit l :: rest) = MOk (MNegated l, rest).
  Proof. intros H. destruct l as [n|fl|raw cooked|c|b]; try discriminate; try reflexivity. cbn in H. subst b. reflexivity. Qed.
  Lemma mparse_ident f s rest : mparse (S f) (Ident s :: rest) = MOk (MSymbol s, rest).
  Proof. reflexivity. Qed.
  Lemma mparse_hash_str f s sp raw rest : mparse (S f) (Punct 35 sp :: Lit (LStr raw s) :: rest) = MOk (MSymbol raw, rest).
  Proof. reflexivity. Qed.
  Lemma mparse_hash_nil f sp rest : mparse (S f) (Punct 35 sp :: Ident (s2b "nil") :: rest) = MOk (MNil, rest).
  Proof. reflexivity. Qed.
  Lemma mparse_hash_t f sp rest : mparse (S f) (Punct 35 sp :: Ident (s2b "t") :: rest) = MOk (MBool true, rest).
  Proof. reflexivity. Qed.
  Lemma mparse_hash_f f sp rest : mparse (S f) (Punct 35 sp :: Ident (s2b "f") :: rest) = MOk (MBool false, rest).
  Proof. reflexivity. Qed.
  Lemma mparse_kw_ident f sp sp2 s rest : mparse (S f) (Punct 35 sp :: Punct 58 sp2 :: Ident s :: rest) = MOk (MKeyword s, rest).
  Proof. reflexivity. Qed.
  Lemma mparse_kw_str f sp sp2 raw s rest : mparse (S f) (Punct 35 sp :: Punct 58 sp2 :: Lit (LStr raw s) :: rest) = MOk (MKeyword raw, rest).
  Proof. reflexivity. Qed.

  Lemma parse_identifier_punct s : forall acc rest, s <> [] -> forallb ident_cont_punct s = true ->
    parse_identifier (punct_spell s ++ rest) acc = (acc ++ s, rest).
  Proof.
    induction s as [|c s IH]; intros acc rest Hne Hall; [contradiction|].
    cbn [forallb] in Hall. apply andb_prop in Hall. destruct Hall as [Hc Hs].
    destruct s as [|c2 s2].
    - cbn [punct_spell app parse_identifier]. rewrite Hc. reflexivity.
    - change (punct_spell (c :: c2 :: s2)) with (Punct c Joint :: punct_spell (c2 :: s2)). cbn [app parse_identifier]. rewrite Hc.
      rewrite (IH (acc ++ [c]) rest ltac:(discriminate) Hs). rewrite <- app_assoc. reflexivity.
  Qed.
  Lemma start_not_special c : ident_start_punct c = true -> (c =? 35) = false /\ (c =? 44) = false.
  Proof.
    unfold ident_start_punct, memb. cbn [s2b existsb]. intros H.
    repeat (apply orb_true_iff in H; destruct H as [H|H]; [apply N.eqb_eq in H; subst c; split; reflexivity|]). discriminate.
  Qed.
  Lemma mparse_punct f s rest : bare_punct s = true -> mparse (S f) (punct_spell s ++ rest) = MOk (MSymbol s, rest).
  Proof.
    intros Hb. destruct s as [|c [|c2 s2]]; [discriminate| |].
    - cbn [bare_punct] in Hb. repeat (apply andb_prop in Hb; destruct Hb as [Hb ?]).
      destruct (start_not_special c Hb) as [E35 E44].
      cbn [punct_spell app mparse]. rewrite E35, E44, Hb.
      destruct (c =? 45) eqn:E45; [discriminate|]. destruct (c =? 58) eqn:E58; [discriminate|]. reflexivity.
    - change (bare_punct (c :: c2 :: s2)) with (ident_start_punct c && forallb ident_cont_punct (c2 :: s2)) in Hb.
      apply andb_prop in Hb. destruct Hb as [Hc Hs]. destruct (start_not_special c Hc) as [E35 E44].
      change (punct_spell (c :: c2 :: s2)) with (Punct c Joint :: punct_spell (c2 :: s2)). cbn [app mparse]. rewrite E35, E44, Hc.
      rewrite (parse_identifier_punct (c2 :: s2) [c] rest ltac:(discriminate) Hs). reflexivity.
  Qed.

  Lemma PV_atom v : is_cons v = false -> is_null v = false -> (forall l, v <> Vector l) -> PV v.
  Proof.
    intros Hc Hn Hv fuel rest Hok Hf. pose proof (spell_size_pos v Hok) as Hpos.
    destruct fuel as [|f]; [lia|]. clear Hpos Hf.
    destruct v as [| |b|n|c|s|s|s|bs|a d|l]; try discriminate; try (exfalso; eapply Hv; reflexivity); cbn [cok] in Hok; try contradiction;
      cbn [spell spell_atom spell_number spell_name app].
    - rewrite mparse_hash_nil. eexists. repeat split; cbn; auto.
    - destruct b; [rewrite mparse_hash_t|rewrite mparse_hash_f]; eexists; repeat split; cbn; auto.
    - destruct n as [u|i|fl]; cbn [spell_number app].
      + rewrite mparse_lit. eexists. repeat split; cbn; auto.
      + rewrite mparse_neg by reflexivity. eexists. split; [reflexivity|]. split; [|cbn; auto]. cbn [meval value_of_neg_lit]. unfold num_from_signed.
        rewrite Z2N.id by lia. replace (- - i)%Z with i by lia. destruct (0 <=? i)%Z eqn:E; [lia|reflexivity].
      + destruct (float_sign fl) eqn:Es; cbn [app]; [rewrite mparse_neg by reflexivity|rewrite mparse_lit]; eexists; (split; [reflexivity|]); (split; [|cbn; auto]);
          cbn [meval value_of_neg_lit value_of_lit]; [now rewrite SFopp_invol|reflexivity].
    - rewrite mparse_lit. eexists. repeat split; cbn; auto.
    - rewrite mparse_lit. eexists. repeat split; cbn; auto.
    - destruct (is_ident s); cbn [app]; [rewrite mparse_ident; eexists; repeat split; cbn; auto|].
      destruct (bare_punct s) eqn:Eb; [rewrite (mparse_punct f s rest Eb)|cbn [app]; rewrite mparse_hash_str]; eexists; repeat split; cbn; auto.
    - unfold spell_name. destruct (is_ident s); cbn [app]; [rewrite mparse_kw_ident|rewrite mparse_kw_str]; eexists; repeat split; cbn; auto.
  Qed.

  Lemma mparse_group f inner rest :
    mparse (S f) (Group Paren inner :: rest) =
    match mparse_list f inner [] None with MOk v => MOk (v, rest) | MErr e => MErr e end.
  Proof. reflexivity. Qed.
  Lemma mparse_vec f sp inner rest :
    mparse (S f) (Punct 35 sp :: Group Paren inner :: rest) =
    match mparse_seq f inner with MOk els => MOk (MVector els, rest) | MErr e => MErr e end.
  Proof. reflexivity. Qed.

  Definition hd_ok (t : tt) : Prop :=
    match t with
    | Punct 35 _ => True
    | Punct 45 Alone => True
    | Punct c s => ident_start_punct c = true /\ (c = 46 -> s = Joint)
    | Lit _ | Ident _ | Group _ _ => True
    end.

  Lemma mparse_list_elem f t ts elements : hd_ok t ->
    mparse_list (S f) (t :: ts) elements None =
    match mparse f (t :: ts) with
    | MOk (v, rest) => mparse_list f rest (elements ++ [v]) None
    | MErr e => MErr e
    end.
  Proof.
    destruct t as [c s|l|i|d inner]; intros H; try reflexivity.
    destruct c as [|p]; [reflexivity|].
    do 7 (try (destruct p as [p|p|]; try reflexivity)).
    destruct s; [|reflexivity]. cbn [hd_ok] in H. destruct H as [_ H]. discriminate (H eq_refl).
  Qed.

  Lemma mparse_list_nil f elements : mparse_list (S f) [] elements None = MOk (MList elements).
  Proof. reflexivity. Qed.
  Lemma mparse_list_dot f ts elements :
    mparse_list (S f) (Punct 46 Alone :: ts) elements None =
    match mparse f ts with
    | MOk (v, rest) => mparse_list f rest elements (Some v)
    | MErr e => MErr e
    end.
  Proof. reflexivity. Qed.
  Lemma mparse_list_end_tail f elements m : not_list m ->
    mparse_list (S f) [] elements (Some m) = MOk (MImproper elements m).
  Proof. destruct m; cbn [not_list]; intros H; try contradiction; reflexivity. Qed.
  Lemma mparse_seq_cons f t ts :
    mparse_seq (S f) (t :: ts) =
    match mparse f (t :: ts) with
    | MOk (v, rest) => match mparse_seq f rest with MOk vs => MOk (v :: vs) | MErr e => MErr e end
    | MErr e => MErr e
    end.
  Proof. reflexivity. Qed.

  Lemma spell_head v : cok v -> exists t ts, spell v = t :: ts /\ hd_ok t.
  Proof.
    destruct v as [| |b|n|c|s|s|s|bs|a d|l]; cbn [spell spell_atom cok]; intros H; try contradiction;
      try (eexists; eexists; split; [reflexivity|exact I]).
    - destruct n as [u|i|f]; cbn [spell_number]; [| |destruct (float_sign f)]; eexists; eexists; split; try reflexivity; exact I.
    - destruct (is_ident s); [eexists; eexists; split; try reflexivity; exact I|].
      destruct (bare_punct s) eqn:Eb; [|eexists; eexists; split; try reflexivity; exact I].
      destruct s as [|c [|c2 s2]]; [discriminate| |].
      + cbn [bare_punct] in Eb. repeat (apply andb_prop in Eb; destruct Eb as [Eb ?]).
        exists (Punct c Alone), []. split; [reflexivity|].
        assert (Hne : c <> 46) by (intros ->; discriminate).
        destruct c as [|p]; [discriminate Eb|]. cbn [hd_ok].
        do 7 (try (destruct p as [p|p|]; try (split; [exact Eb|intros E46; try discriminate E46; try (exfalso; exact (Hne E46))]); try exact I)).
      + change (bare_punct (c :: c2 :: s2)) with (ident_start_punct c && forallb ident_cont_punct (c2 :: s2)) in Eb.
        apply andb_prop in Eb. destruct Eb as [Hc _].
        exists (Punct c Joint), (punct_spell (c2 :: s2)). split; [reflexivity|].
        destruct c as [|p]; [discriminate Hc|]. cbn [hd_ok].
        do 7 (try (destruct p as [p|p|]; try (split; [exact Hc|intros _; reflexivity]); try exact I)).
  Qed.

  Definition LT (d : value) : Prop :=
    forall fuel elements, cok d -> (2 * tts_size (spell_tail d) + 1 <= fuel)%nat ->
      exists m, mparse_list fuel (spell_tail d) elements None = MOk m /\
                meval ev m = build (map (meval ev) elements) d.

  Lemma LT_null : LT Null.
  Proof.
    intros fuel elements _ Hf. destruct fuel as [|f]; [lia|]. cbn [spell_tail]. rewrite mparse_list_nil.
    eexists. split; [reflexivity|]. reflexivity.
  Qed.

  Lemma LT_cons a d : PV a -> LT d -> LT (Cons a d).
  Proof.
    intros Ha Hd fuel elements [Hoka Hokd] Hf. destruct fuel as [|f]; [lia|].
    cbn [spell_tail] in *. rewrite tts_size_app in Hf. pose proof (spell_size_pos a Hoka) as Hpos.
    destruct (spell_head a Hoka) as (t & ts & E & Ht).
    assert (Em : mparse_list (S f) (spell a ++ spell_tail d) elements None =
                 match mparse f (spell a ++ spell_tail d) with
                 | MOk (v, rest) => mparse_list f rest (elements ++ [v]) None
                 | MErr e => MErr e
                 end) by (rewrite E; cbn [app]; apply mparse_list_elem; exact Ht).
    rewrite Em. destruct (Ha f (spell_tail d) Hoka ltac:(lia)) as (ma & E1 & Ev & _). rewrite E1.
    destruct (Hd f (elements ++ [ma]) Hokd ltac:(lia)) as (m & E2 & Ev2). exists m. split; [exact E2|].
    rewrite Ev2, map_app. cbn [map]. rewrite Ev. apply build_snoc.
  Qed.

  Lemma LT_dot d : PV d -> is_cons d = false -> is_null d = false -> LT d.
  Proof.
    intros Hd Hc Hn fuel elements Hok Hf. destruct fuel as [|f]; [lia|].
    rewrite (spell_tail_noncons d Hc Hn) in *. change (tts_size (Punct 46 Alone :: spell d)) with (S (tts_size (spell d))) in Hf.
    rewrite mparse_list_dot. destruct (Hd f [] Hok ltac:(lia)) as (md & E1 & Ev & Hnl). rewrite app_nil_r in E1. rewrite E1.
    destruct f as [|f']; [pose proof (spell_size_pos d Hok); lia|].
    rewrite (mparse_list_end_tail f' elements md (Hnl Hc Hn)). eexists. split; [reflexivity|].
    cbn [meval]. rewrite Ev. reflexivity.
  Qed.

  Lemma PV_list v : is_cons v = true \/ is_null v = true -> LT v -> PV v.
  Proof.
    intros Hshape HL fuel rest Hok Hf. destruct fuel as [|f]; [pose proof (spell_size_pos v Hok); lia|].
    assert (Es : spell v = [Group Paren (spell_tail v)]) by (destruct v; destruct Hshape as [H|H]; try discriminate H; reflexivity).
    rewrite Es in *. cbn [app]. rewrite mparse_group.
    change (tts_size [Group Paren (spell_tail v)]) with (S (tts_size (spell_tail v)) + 0)%nat in Hf.
    destruct (HL f [] Hok ltac:(lia)) as (m & E & Ev). rewrite E. exists m. split; [reflexivity|]. split; [exact Ev|].
    intros Hc Hn. destruct Hshape; congruence.
  Qed.

  Lemma SEQ l : Forall PV l -> forall fuel, all_cok l -> (2 * tts_size (spell_elems l) + 1 <= fuel)%nat ->
    exists ms, mparse_seq fuel (spell_elems l) = MOk ms /\ map (meval ev) ms = l.
  Proof.
    induction 1 as [|x l Hx _ IH]; intros fuel Hok Hf; (destruct fuel as [|f]; [lia|]).
    - exists []. split; reflexivity.
    - cbn [all_cok] in Hok. destruct Hok as [Hokx Hokl]. cbn [spell_elems] in *. rewrite tts_size_app in Hf.
      pose proof (spell_size_pos x Hokx) as Hpos. destruct (spell_head x Hokx) as (t & ts & E & _).
      assert (Em : mparse_seq (S f) (spell x ++ spell_elems l) =
                   match mparse f (spell x ++ spell_elems l) with
                   | MOk (v, rest) => match mparse_seq f rest with MOk vs => MOk (v :: vs) | MErr e => MErr e end
                   | MErr e => MErr e
                   end) by (rewrite E; cbn [app]; apply mparse_seq_cons).
      rewrite Em. destruct (Hx f (spell_elems l) Hokx ltac:(lia)) as (mx & E1 & Ev & _). rewrite E1.
      destruct (IH f Hokl ltac:(lia)) as (ms & E2 & Ev2). rewrite E2. exists (mx :: ms). split; [reflexivity|].
      cbn [map]. now rewrite Ev, Ev2.
  Qed.

  Lemma PV_vector l : Forall PV l -> PV (Vector l).
  Proof.
    intros Hl fuel rest Hok Hf. destruct fuel as [|f]; [cbn in Hf; lia|].
    change (spell (Vector l)) with [Punct 35 Alone; Group Paren (spell_elems l)] in *. cbn [app]. rewrite mparse_vec.
    change (tts_size [Punct 35 Alone; Group Paren (spell_elems l)]) with (S (S (tts_size (spell_elems l)) + 0))%nat in Hf.
    destruct (SEQ l Hl f Hok ltac:(lia)) as (ms & E & Ev). rewrite E. exists (MVector ms). split; [reflexivity|].
    split; [cbn [meval]; now rewrite Ev|]. intros _ _. exact I.
  Qed.

  Theorem macro_reads_spelling v : PV v /\ LT v.
  Proof.
    induction v as [| |b|n|c|s|s|s|bs|a d [IHa _] [_ IHd]|l H] using value_ind';
      try (split; [apply PV_atom; [reflexivity|reflexivity|intros; discriminate]
                  |apply LT_dot; [apply PV_atom; [reflexivity|reflexivity|intros; discriminate]|reflexivity|reflexivity]]).
    - split; [apply PV_list; [right; reflexivity|apply LT_null]|apply LT_null].
    - split; [apply PV_list; [left; reflexivity|]|]; apply LT_cons; assumption.
    - assert (Hl : Forall PV l) by (eapply Forall_impl; [|exact H]; intros x [Hx _]; exact Hx).
      split; [apply PV_vector; exact Hl|apply LT_dot; [apply PV_vector; exact Hl|reflexivity|reflexivity]].
  Qed.

  Theorem macro_value v : cok v -> exists m, macro_parse (spell v) = MOk m /\ meval ev m = v.
  Proof.
    intros Hok. unfold macro_parse.
    destruct (proj1 (macro_reads_spelling v) (2 * tts_size (spell v) + 4)%nat [] Hok ltac:(lia)) as (m & E & Ev & _).
    rewrite app_nil_r in E. rewrite E. exists m. auto.
  Qed.

End Spelling.
