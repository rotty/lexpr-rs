(* C12 / C01: whitespace and line comments at token boundaries do not change
   what is read.  A layout (lay) is a spelling of a value in which every list
   and vector boundary carries explicit trivia; atoms and canonically printed
   sub-values are the leaves. *)
From Coq Require Import SpecFloat ZifyBool ZifyNat ZifyN.
Require Import Base Value Float PrintOptions Printer ParseOptions Utf8 Reader Scan Num NumberOps Parser Depth.
Require Import ReaderProofs TextProofs TokenProofs DepthProofs RoundtripProofs BytesLayout.

Inductive lay :=
| LAtom (v : value)                               (* the printer's text of v, any v *)
| LSeq (vec : bool) (b : body)                    (* "(" body ")"  or  "#(" body ")" *)
| LBytes (p0 : bytes) (os : olay) (cp : bytes)    (* "#u8" trivia "(" octets, each after its trivia, trivia ")" *)
with body :=
| BEnd (cp : bytes)                               (* trivia, then the closing parenthesis *)
| BDot (p1 p2 : bytes) (t : lay) (cp : bytes)     (* trivia "." trivia tail trivia *)
| BItem (p : bytes) (e : lay) (b : body).         (* trivia element, rest of the body *)
Scheme lay_mut := Induction for lay Sort Prop
  with body_mut := Induction for body Sort Prop.
Combined Scheme lay_body_ind from lay_mut, body_mut.

Fixpoint lval (l : lay) : value :=
  match l with
  | LAtom v => v
  | LSeq vec b => if vec then Vector (bitems b) else build (bitems b) (btail b)
  | LBytes _ os _ => Bytes (map snd os)
  end
with bitems (b : body) : list value :=
  match b with BItem _ e b' => lval e :: bitems b' | _ => [] end
with btail (b : body) : value :=
  match b with BEnd _ => Null | BDot _ _ t _ => lval t | BItem _ _ b' => btail b' end.

Fixpoint ldepth (l : lay) : nat :=
  match l with
  | LAtom v => rdepth v
  | LSeq _ b => S (bdepth b)
  | LBytes _ _ _ => 0
  end
with bdepth (b : body) : nat :=
  match b with
  | BEnd _ => 0
  | BDot _ _ t _ => ldepth t
  | BItem _ e b' => Nat.max (ldepth e) (bdepth b')
  end.

Lemma delim_ok_app x y : x <> [] -> delim_ok x -> delim_ok (x ++ y).
Proof. destruct x as [|c x']; [contradiction|]. intros _ H. exact H. Qed.

Section Trivia.
  Variable ryu : f64 -> bytes.
  Variable alpha : N -> bool.
  Variable fast : bool.
  Variable std_parse : N -> Z -> f64.
  Local Notation ro := default_ro.
  Local Notation txt := (txt ryu).
  Local Notation rt_ok := (rt_ok alpha).
  Local Notation reads := (reads alpha fast std_parse ro).
  Local Notation reads_list := (reads_list alpha fast std_parse ro).
  Local Notation reads_vector := (reads_vector alpha fast std_parse ro).
  Local Notation list_step := (list_step alpha fast std_parse ro).

  Fixpoint ltxt (l : lay) : bytes :=
    match l with
    | LAtom v => txt v
    | LSeq vec b => (if vec then [35; 40] else [40]) ++ btxt b ++ [41]
    | LBytes p0 os cp => 35 :: 117 :: 56 :: p0 ++ 40 :: olay_text os ++ cp ++ [41]
    end
  with btxt (b : body) : bytes :=
    match b with
    | BEnd cp => cp
    | BDot p1 p2 t cp => p1 ++ 46 :: p2 ++ ltxt t ++ cp
    | BItem p e b' => p ++ ltxt e ++ btxt b'
    end.

  (* well-formed layouts: trivia is trivia; an element that is not the first
     is separated from its predecessor (non-empty trivia, or it starts with an
     opening parenthesis); the dot stands alone; only lists have a dotted tail *)
  Fixpoint lok (l : lay) : Prop :=
    match l with
    | LAtom v => rt_ok v
    | LSeq vec b => bok vec true b
    | LBytes p0 os cp => trivia p0 /\ olay_ok true os /\ trivia cp
    end
  with bok (vec first : bool) (b : body) {struct b} : Prop :=
    match b with
    | BEnd cp => trivia cp
    | BDot p1 p2 t cp => vec = false /\ first = false /\ trivia p1 /\ p1 <> [] /\ trivia p2 /\
                         delim_ok (p2 ++ ltxt t) /\ lok t /\ trivia cp
    | BItem p e b' => trivia p /\ (first = true \/ delim_ok (p ++ ltxt e)) /\ lok e /\ bok vec false b'
    end.

  Definition PL (l : lay) : Prop := lok l -> reads (ltxt l) (lval l) (ldepth l).

  Definition PB (b : body) : Prop :=
    forall vec first, bok vec first b ->
      if vec then reads_vector 41 (btxt b) (bitems b) (bdepth b)
      else reads_list 41 (btxt b) (build (bitems b) (btail b)) (bdepth b) (negb first).

  Lemma ltxt_head l : lok l ->
    exists b t, ltxt l = b :: t /\ starts_datum b /\ is_closer b = false /\ (b = 46 -> exists v, l = LAtom v).
  Proof. clear fast std_parse.
    destruct l as [v|vec b|p0 os cp]; intros Hok.
    - destruct (txt_head ryu alpha v Hok) as (b & t & E & Hs & Hc & _).
      exists b, t. repeat split; auto; try apply Hs. intros _. eexists; reflexivity.
    - destruct vec; cbn [ltxt app].
      + exists 35, (40 :: btxt b ++ [41]). repeat split; try reflexivity; discriminate.
      + exists 40, (btxt b ++ [41]). repeat split; try reflexivity; discriminate.
    - cbn [ltxt]. eexists 35, _. repeat split; try reflexivity; discriminate.
  Qed.

  Lemma ltxt_nonempty l : lok l -> (1 <= length (ltxt l))%nat.
  Proof. clear fast std_parse. intros H. destruct (ltxt_head l H) as (b & t & E & _). rewrite E. cbn [length]. lia. Qed.

  Lemma PL_atom v : PL (LAtom v).
  Proof. intros Hok. exact (P_reads ryu alpha fast std_parse v (proj1 (next_value_reads_text ryu alpha fast std_parse v)) Hok). Qed.

  (* one element of a list body: only a printed symbol can begin with a dot *)
  Lemma lelem_step e : PL e -> lok e -> list_step 41 (ltxt e) (lval e) (ldepth e).
  Proof.
    intros HP Hok.
    assert (Hna : (forall v, e <> LAtom v) -> list_step 41 (ltxt e) (lval e) (ldepth e)).
    { intros Hnot. destruct (ltxt_head e Hok) as (c & t & E & Hst & Hcl & H46).
      apply (list_item alpha fast std_parse ro 41 _ _ _ c t (HP Hok) E Hst Hcl).
      intros E46. destruct (H46 E46) as [v Hv]. exact (Hnot v Hv). }
    destruct e as [v|vec b|p0 os cp]; [|apply Hna; discriminate|apply Hna; discriminate].
    intros f r D acc pre more Hpre.
    exact (elem_step ryu alpha fast std_parse v (proj1 (next_value_reads_text ryu alpha fast std_parse v))
             f r D acc pre more Hpre Hok).
  Qed.

  Lemma btxt_delim vec b rest : bok vec false b -> delim_ok (btxt b ++ 41 :: rest).
  Proof. clear fast std_parse.
    destruct b as [cp|p1 p2 t cp|p e b']; cbn [bok btxt].
    - intros Hcp. apply trivia_delim; [exact Hcp|reflexivity].
    - intros (_ & _ & Hp1 & Hne & _). rewrite <- app_assoc. apply delim_ok_app; [exact Hne|].
      destruct p1 as [|c p1']; [contradiction|].
      exact (trivia_delim (c :: p1') 41 [] Hp1 eq_refl).
    - intros (Hp & [Hf|Hd] & Hok & _); [discriminate|]. rewrite app_assoc, <- app_assoc.
      apply delim_ok_app; [|exact Hd].
      intros E. apply app_eq_nil in E. destruct E as [_ E]. pose proof (ltxt_nonempty e Hok) as Hl. rewrite E in Hl. cbn in Hl. lia.
  Qed.

  Lemma PB_end cp : PB (BEnd cp).
  Proof. intros vec first Hok. destruct vec; [apply vector_end|apply list_end]; auto. Qed.

  Lemma PB_item p e b : PL e -> PB b -> PB (BItem p e b).
  Proof.
    intros HPe HPb vec first (Hp & _ & Hoke & Hokb). specialize (HPb vec false Hokb).
    destruct (ltxt_head e Hoke) as (c & t & E & Hst & Hcl & _).
    destruct vec.
    - exact (vector_cons alpha fast std_parse ro 41 p (ltxt e) (lval e) (ldepth e) c t (btxt b) (bitems b) (bdepth b)
               (HPe Hoke) E Hst Hcl Hp (fun rest => btxt_delim true b rest Hokb) HPb).
    - exact (list_cons alpha fast std_parse ro 41 p (ltxt e) (lval e) (ldepth e) (btxt b) _ (bdepth b) _ _
               (lelem_step e HPe Hoke) (ltxt_nonempty e Hoke) Hp (fun rest => btxt_delim false b rest Hokb) HPb).
  Qed.

  Lemma PB_dot p1 p2 t cp : PL t -> PB (BDot p1 p2 t cp).
  Proof.
    intros HPt vec first (-> & -> & Hp1 & Hne & Hp2 & Hd2 & Hokt & Hcp).
    exact (list_dot alpha fast std_parse ro 41 p1 p2 (ltxt t) (lval t) (ldepth t) cp (or_introl eq_refl)
             (HPt Hokt) (ltxt_nonempty t Hokt) Hp1 Hp2 Hd2 Hcp).
  Qed.

  Lemma PL_seq vec b : PB b -> PL (LSeq vec b).
  Proof.
    intros HPb Hok. specialize (HPb vec true Hok). destruct vec.
    - exact (vector_seq alpha fast std_parse ro 41 35 [40] (btxt b) (bitems b) (bdepth b) (or_introl eq_refl) (starts_byte 35 eq_refl eq_refl)
               (tok_vecopen alpha fast std_parse) HPb).
    - exact (list_seq alpha fast std_parse ro 41 40 [] (btxt b) _ (bdepth b) (or_introl eq_refl) (starts_byte 40 eq_refl eq_refl)
               (tok_listopen alpha fast std_parse) HPb).
  Qed.

  Lemma PL_bytes p0 os cp : PL (LBytes p0 os cp).
  Proof.
    intros (Hp0 & Hos & Hcp) fuel r D pre rest Hpre HD HD' Hf Ha Hr.
    destruct fuel as [|f]; [unfold K in Hf; lia|]. unfold K in Hf. cbn [ldepth ltxt lval] in *.
    cbn [app length] in Ha, Hf. rewrite !app_length in Hf. cbn [length] in Hf. rewrite !app_length in Hf. cbn [length] in Hf.
    destruct (next_value_at alpha fast std_parse ro f r D pre 35 _ ltac:(lia) Hpre Ha (starts_byte 35 eq_refl eq_refl)) as (r0 & Ha0 & Hp0' & Hk0 & Hnv).
    destruct (tok_bytevec alpha fast std_parse f r0 ((p0 ++ 40 :: olay_text os ++ cp ++ [41]) ++ rest) Ha0 Hp0') as (r1 & E1 & Ha1 & Hk1).
    rewrite (Hnv _ _ E1). cbn [after_token].
    rewrite <- !app_assoc in Ha1. cbn [app] in Ha1. rewrite <- !app_assoc in Ha1. cbn [app] in Ha1.
    destruct (parse_byte_list_lay fast std_parse f r1 p0 os cp rest Hp0 Hos Hcp ltac:(lia) Ha1) as (r2 & E2 & Ha2 & Hk2).
    rewrite (pbind_eq _ _ _ _ _ (liftR_ok _ r1 D _ _ E2)).
    exists r2. split; [reflexivity|]. split; [assumption|congruence].
  Qed.

  Theorem reads_layout : (forall l, PL l) /\ (forall b, PB b).
  Proof.
    apply lay_body_ind.
    - apply PL_atom.
    - intros vec b Hb. apply PL_seq. exact Hb.
    - apply PL_bytes.
    - apply PB_end.
    - intros p1 p2 t Ht cp. apply PB_dot. exact Ht.
    - intros p e He b Hb. apply PB_item; assumption.
  Qed.

  Theorem layout_from_trait k l pre post : trivia pre -> trivia_eof post -> lok l -> (ldepth l <= 127)%nat ->
    from_trait ro alpha fast std_parse k (bytes_events (pre ++ ltxt l ++ post)) = POk (lval l).
  Proof.
    intros Hpre Hpost Hok Hd.
    exact (from_trait_reads alpha fast std_parse ro (ltxt l) (lval l) (ldepth l) k pre post (proj1 reads_layout l Hok) Hd Hpre Hpost).
  Qed.

  Fixpoint seq_ltxt (ls : list (bytes * lay)) (post : bytes) : bytes :=
    match ls with [] => post | (p, l) :: ls' => p ++ ltxt l ++ seq_ltxt ls' post end.

  Fixpoint seq_ok (first : bool) (D : N) (ls : list (bytes * lay)) : Prop :=
    match ls with
    | [] => True
    | (p, l) :: ls' => trivia p /\ (first = true \/ delim_ok (p ++ ltxt l)) /\ lok l /\ N.of_nat (ldepth l) < D /\
                       seq_ok false D ls'
    end.

  Lemma seq_ltxt_delim D ls post : seq_ok false D ls -> trivia_eof post -> delim_ok (seq_ltxt ls post).
  Proof. clear fast std_parse.
    destruct ls as [|[p l] ls']; cbn [seq_ltxt seq_ok].
    - intros _ Hpost. apply trivia_eof_delim. exact Hpost.
    - intros (_ & [Hf|Hd] & Hok & _) _; [discriminate|]. rewrite app_assoc. apply delim_ok_app; [|exact Hd].
      intros E. apply app_eq_nil in E. destruct E as [_ E]. pose proof (ltxt_nonempty l Hok) as Hl. rewrite E in Hl. cbn in Hl. lia.
  Qed.

  Theorem iterate_layouts ls : forall first post fuel n r D, seq_ok first D ls -> trivia_eof post -> D <= 128 ->
    (length (seq_ltxt ls post) + K + 2 <= fuel)%nat -> (length ls < n)%nat -> at_bytes r (seq_ltxt ls post) ->
    iterate_values ro alpha fast std_parse fuel n (mkp r D) = map (fun pl => POk (lval (snd pl))) ls.
  Proof.
    induction ls as [|[p l] ls IH]; intros first post fuel n r D Hall Hpost HD Hf Hn Ha;
      (destruct n as [|n]; [cbn in Hn; lia|]); cbn [seq_ltxt] in *.
    - apply (iterate_end alpha fast std_parse ro post); [exact Hpost|unfold K in Hf; lia|exact Ha].
    - cbn [iterate_values]. destruct Hall as (Hp & _ & Hok & Hd & Hall'). rewrite !app_length in Hf.
      destruct (proj1 reads_layout l Hok fuel r D p (seq_ltxt ls post) Hp Hd HD ltac:(lia) Ha
                  (seq_ltxt_delim D ls post Hall' Hpost)) as (r1 & E1 & Ha1 & _).
      rewrite E1. cbn [map snd]. f_equal. apply (IH false post); auto; try lia. cbn [length] in Hn. lia.
  Qed.

  (* trivia carries no information: two layouts of the same value read alike *)
  Corollary same_value_same_result k l1 l2 pre1 post1 pre2 post2 :
    trivia pre1 -> trivia_eof post1 -> lok l1 -> (ldepth l1 <= 127)%nat ->
    trivia pre2 -> trivia_eof post2 -> lok l2 -> (ldepth l2 <= 127)%nat -> lval l1 = lval l2 ->
    from_trait ro alpha fast std_parse k (bytes_events (pre1 ++ ltxt l1 ++ post1)) =
    from_trait ro alpha fast std_parse k (bytes_events (pre2 ++ ltxt l2 ++ post2)).
  Proof.
    intros H1 H2 H3 H4 H5 H6 H7 H8 E. rewrite (layout_from_trait k l1 pre1 post1), (layout_from_trait k l2 pre2 post2); auto.
    now rewrite E.
  Qed.

End Trivia.
