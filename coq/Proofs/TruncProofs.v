(* C19: what a truncated input can fail with. Part 1: once a stream reader has
   reached the end of its input, every function of the parser returns a value
   or an error of the EOF category - or one of four codes (eofcode) that check
   data read BEFORE the end: NumberOutOfRange (the range check of a finished
   numeric literal: the known finding of C19), InvalidUnicodeCodePoint (a
   scanned symbol or string), ExpectedOctet, RecursionLimitExceeded. *)
Require Import Base Value Float PrintOptions ParseOptions Utf8 Reader Scan Num NumberOps Parser.
Require Import ListProofs RelFramework.

Definition ateof (r : reader) : Prop := rk r = SrcIo /\ rinput r = [] /\ rpending r = false.
Definition eofcode (c : errcode) : bool :=
  match classify_code c with CatEof => true | _ => match c with NumberOutOfRange | InvalidUnicodeCodePoint | ExpectedOctet | RecursionLimitExceeded => true | _ => false end end.
Definition eofish (e : perr) : Prop :=
  match e with EFuel => True | ESyntax c _ _ => eofcode c = true | EIo _ => False end.
Definition okres {A} (x : res A) : Prop := match x with Ok _ => True | Err e => eofish e end.
Definition ef {A} (m : M A) : Prop := forall r, ateof r -> ateof (snd (m r)) /\ okres (fst (m r)).

(* the same with a bound V on the values m may return there: `ef` is `efv (fun _ => True)`;
   a step that can only fail at the end of the input has V := fun _ => False *)
Definition okv {A} (V : A -> Prop) (x : res A) : Prop := match x with Ok a => V a | Err e => eofish e end.
Definition efv {A} (V : A -> Prop) (m : M A) : Prop := forall r, ateof r -> ateof (snd (m r)) /\ okv V (fst (m r)).

Lemma efv_ret {A} (V : A -> Prop) a : V a -> efv V (ret a).
Proof. intros Hv r H. split; [exact H|exact Hv]. Qed.
Lemma efv_fuel {A} (V : A -> Prop) : efv V out_of_fuel.
Proof. intros r H. split; [exact H|exact I]. Qed.
Lemma efv_error {A} (V : A -> Prop) c : eofcode c = true -> efv V (error c).
Proof. intros Hc r H. unfold error. destruct (r_position r). cbn [fst snd]. split; [exact H|exact Hc]. Qed.
Lemma efv_weaken {A} (V W : A -> Prop) (m : M A) : (forall a, V a -> W a) -> efv V m -> efv W m.
Proof. intros Hw Hm r H. destruct (Hm r H) as [H1 H2]. split; [exact H1|]. destruct (fst (m r)); [apply Hw|]; exact H2. Qed.
Lemma efv_bind {A B} (V : A -> Prop) (W : B -> Prop) (m : M A) (f : A -> M B) :
  efv V m -> (forall a, V a -> efv W (f a)) -> efv W (bind m f).
Proof.
  intros Hm Hf r H. unfold bind. destruct (Hm r H) as [H1 H2]. destruct (m r) as [[a|e] r1]; cbn [fst snd okv] in *.
  - apply (Hf a H2). exact H1.
  - split; assumption.
Qed.

Lemma ef_ret {A} (a : A) : ef (ret a).
Proof. exact (efv_ret (fun _ => True) a I). Qed.
Lemma ef_fuel {A} : ef (@out_of_fuel A).
Proof. exact (efv_fuel (fun _ => True)). Qed.
Lemma ef_error {A} c : eofcode c = true -> ef (@error A c).
Proof. exact (efv_error (fun _ => True) c). Qed.
Lemma ef_peek_error {A} c : eofcode c = true -> ef (@peek_error A c).
Proof. intros Hc r H. unfold peek_error. destruct (r_peek_position r). cbn [fst snd]. split; [exact H|exact Hc]. Qed.
Lemma ef_position : ef position.
Proof. intros r H. split; [exact H|exact I]. Qed.
Lemma ef_eat : ef eat_char.
Proof.
  intros [k ln cl p i] (K & I & P). cbn in *. subst. unfold eat_char, r_discard. cbn. split; [repeat split|exact I].
Qed.
Lemma ef_bind_v {A B} (V : A -> Prop) (m : M A) (f : A -> M B) : efv V m -> (forall a, V a -> ef (f a)) -> ef (bind m f).
Proof. exact (efv_bind V (fun _ => True) m f). Qed.
Lemma ef_bind {A B} (m : M A) (f : A -> M B) : ef m -> (forall a, ef (f a)) -> ef (bind m f).
Proof. intros Hm Hf. apply (ef_bind_v (fun _ => True) m f Hm). intros a _. apply Hf. Qed.
Lemma ef_ext {A} (m m' : M A) : (forall r, m r = m' r) -> ef m' -> ef m.
Proof. intros E H r Hr. rewrite E. apply H. exact Hr. Qed.

Lemma peek_eof r : ateof r -> peek r = (Ok None, r).
Proof. destruct r as [k ln cl p i]. intros (K & I & P). cbn in *. subst. reflexivity. Qed.
Lemma next_eof r : ateof r -> next_char r = (Ok None, r).
Proof. destruct r as [k ln cl p i]. intros (K & I & P). cbn in *. subst. reflexivity. Qed.
Lemma efv_peek : efv (eq None) peek.
Proof. intros r H. rewrite (peek_eof r H). split; [exact H|reflexivity]. Qed.
Lemma efv_next : efv (eq None) next_char.
Proof. intros r H. rewrite (next_eof r H). split; [exact H|reflexivity]. Qed.
Lemma ef_peek : ef peek.
Proof. apply (efv_weaken (eq None)); [intros; exact I|exact efv_peek]. Qed.
Lemma ef_next : ef next_char.
Proof. apply (efv_weaken (eq None)); [intros; exact I|exact efv_next]. Qed.
Lemma efv_peek_or_null : efv (eq 0) peek_or_null.
Proof. apply (efv_bind (eq None) _ _ _ efv_peek). intros o <-. apply efv_ret. reflexivity. Qed.
Lemma efv_next_or c : eofcode c = true ->
  efv (fun _ => False) (o <- next_char;; match o with Some b => ret b | None => error c end).
Proof. intros Hc. apply (efv_bind (eq None) _ _ _ efv_next). intros o <-. apply efv_error. exact Hc. Qed.
Lemma efv_parse_whitespace fuel : efv (eq None) (parse_whitespace fuel).
Proof.
  destruct fuel as [|f]; [apply efv_fuel|]. cbn [parse_whitespace].
  apply (efv_bind (eq None) _ _ _ efv_peek). intros o <-. apply efv_ret. reflexivity.
Qed.

Lemma ef_symbol_end scratch :
  ef (if is_truncated_symbol scratch then error EofWhileParsingValue
      else if beq_bytes scratch [46] then error InvalidSymbol else ret scratch).
Proof.
  unfold is_truncated_symbol. destruct (beq_bytes scratch [46]); cbn [orb]; [apply ef_error; reflexivity|].
  destruct (utf8_truncated scratch); [apply ef_error; reflexivity|apply ef_ret].
Qed.

Lemma ef_if {A} (b : bool) (m1 m2 : M A) : ef m1 -> ef m2 -> ef (if b then m1 else m2).
Proof. intros H1 H2. destruct b; assumption. Qed.
Create HintDb efdb discriminated.
(* one step of the walk over a program: a reader primitive by its rule, a case
   distinction by cases, a sequence by the rule of its first step, anything else
   is a function with a lemma of its own or the induction hypothesis. A boolean
   test is split by ef_if before destruct is tried: the same two goals without
   abstracting the test out of the goal, which is cheaper to check; destruct
   stays as the fallback *)
Ltac ef_step :=
  lazymatch goal with
  | |- ef (ret _) => apply ef_ret
  | |- ef out_of_fuel => apply ef_fuel
  | |- ef position => apply ef_position
  | |- ef eat_char => apply ef_eat
  | |- ef peek => apply ef_peek
  | |- ef next_char => apply ef_next
  | |- ef (error _) => apply ef_error; reflexivity
  | |- ef (peek_error _) => apply ef_peek_error; reflexivity
  | |- ef (if is_truncated_symbol _ then _ else _) => apply ef_symbol_end
  | |- ef (if ?x then _ else _) => first [apply ef_if|destruct x]
  | |- ef (match ?x with _ => _ end) => destruct x
  | |- ef (bind peek _) => apply (ef_bind_v _ _ _ efv_peek); intros ? []
  | |- ef (bind next_char _) => apply (ef_bind_v _ _ _ efv_next); intros ? []
  | |- ef (bind peek_or_null _) => apply (ef_bind_v _ _ _ efv_peek_or_null); intros ? []; at_zero
  | |- ef (bind next_or_eof _) => apply (ef_bind_v _ _ _ (efv_next_or EofWhileParsingString eq_refl)); intros ? []
  | |- ef (bind next_or_eof_char _) => apply (ef_bind_v _ _ _ (efv_next_or EofWhileParsingCharacterConstant eq_refl)); intros ? []
  | |- ef (bind (parse_whitespace ?fuel) _) => apply (ef_bind_v _ _ _ (efv_parse_whitespace fuel)); intros ? []
  | |- ef (bind _ _) => apply ef_bind; [|intros ?]
  | |- ef _ => solve [auto 1 with efdb nocore]
  end.
Ltac ef_auto := repeat ef_step.

Lemma ef_peek_or_null : ef peek_or_null.
Proof. apply (efv_weaken (eq 0)); [intros; exact I|exact efv_peek_or_null]. Qed.
Lemma ef_next_or_eof : ef next_or_eof.
Proof. apply (efv_weaken (fun _ => False)); [intros _ []|exact (efv_next_or EofWhileParsingString eq_refl)]. Qed.
Lemma ef_next_or_eof_char : ef next_or_eof_char.
Proof. apply (efv_weaken (fun _ => False)); [intros _ []|exact (efv_next_or EofWhileParsingCharacterConstant eq_refl)]. Qed.
Lemma ef_as_str b : ef (Scan.as_str b).
Proof. unfold Scan.as_str. ef_auto. Qed.
#[local] Hint Resolve ef_peek_or_null ef_next_or_eof ef_next_or_eof_char ef_as_str : efdb.

Lemma ef_scan_symbol_io fuel : forall scratch, ef (scan_symbol_io fuel scratch).
Proof. induction fuel as [|f IH]; intros scratch; cbn [scan_symbol_io]; ef_auto. Qed.
#[local] Hint Resolve ef_scan_symbol_io : efdb.
Lemma ef_parse_symbol_rd fuel scratch : ef (parse_symbol_rd fuel scratch).
Proof.
  intros r H. pose proof H as (K & _). unfold parse_symbol_rd. rewrite K.
  assert (Hs : ef (b <- scan_symbol_io fuel scratch ;; Scan.as_str b)) by ef_auto. apply Hs. exact H.
Qed.
#[local] Hint Resolve ef_parse_symbol_rd : efdb.
Lemma ef_hex_escape_loop fuel : forall x, ef (hex_escape_loop fuel x).
Proof. induction fuel as [|f IH]; intros x; cbn [hex_escape_loop]; ef_auto. Qed.
#[local] Hint Resolve ef_hex_escape_loop : efdb.
Lemma ef_parse_r6rs_escape fuel : ef (parse_r6rs_escape fuel).
Proof. unfold parse_r6rs_escape, decode_r6rs_hex_escape. ef_auto. Qed.
#[local] Hint Resolve ef_parse_r6rs_escape : efdb.

Lemma ef_r6rs_str_io fuel : forall scratch, ef (r6rs_str_io fuel scratch).
Proof. induction fuel as [|f IH]; intros scratch; cbn [r6rs_str_io]; ef_auto. Qed.
#[local] Hint Resolve ef_r6rs_str_io : efdb.
Lemma ef_parse_r6rs_str_rd fuel : ef (parse_r6rs_str_rd fuel).
Proof.
  intros r H. pose proof H as (K & _). unfold parse_r6rs_str_rd. rewrite K.
  assert (Hs : ef (b <- r6rs_str_io fuel [] ;; Scan.as_str b)) by ef_auto. apply Hs. exact H.
Qed.
#[local] Hint Resolve ef_parse_r6rs_str_rd : efdb.

Lemma ef_elisp_hex_loop fuel : forall x, ef (elisp_hex_loop fuel x).
Proof. induction fuel as [|f IH]; intros x; cbn [elisp_hex_loop]; ef_auto. Qed.
#[local] Hint Resolve ef_elisp_hex_loop : efdb.
Lemma ef_decode_elisp_uni_escape k : forall x, ef (decode_elisp_uni_escape k x).
Proof. induction k as [|k IH]; intros x; cbn [decode_elisp_uni_escape]; ef_auto. Qed.
#[local] Hint Resolve ef_decode_elisp_uni_escape : efdb.
Lemma ef_elisp_octal_loop fuel : forall x, ef (elisp_octal_loop fuel x).
Proof. induction fuel as [|f IH]; intros x; cbn [elisp_octal_loop]; ef_auto. Qed.
#[local] Hint Resolve ef_elisp_octal_loop : efdb.
Lemma ef_elisp_char_escape_of x : ef (elisp_char_escape_of x).
Proof. unfold elisp_char_escape_of. ef_auto. Qed.
Lemma ef_elisp_uni_escape_of x : ef (elisp_uni_escape_of x).
Proof. unfold elisp_uni_escape_of. ef_auto. Qed.
#[local] Hint Resolve ef_elisp_char_escape_of ef_elisp_uni_escape_of : efdb.
Lemma ef_parse_elisp_escape fuel : ef (parse_elisp_escape fuel).
Proof. unfold parse_elisp_escape, decode_elisp_hex_escape, decode_elisp_octal_escape. ef_auto. Qed.
#[local] Hint Resolve ef_parse_elisp_escape : efdb.
Lemma ef_elisp_finish fl scratch : ef (elisp_finish fl scratch).
Proof. unfold elisp_finish. ef_auto. Qed.
#[local] Hint Resolve ef_elisp_finish : efdb.

Lemma ef_elisp_str_io fuel : forall fl scratch, ef (elisp_str_io fuel fl scratch).
Proof. induction fuel as [|f IH]; intros fl scratch; cbn [elisp_str_io]; cbv zeta; ef_auto. Qed.
#[local] Hint Resolve ef_elisp_str_io : efdb.
Lemma ef_parse_elisp_str_rd fuel : ef (parse_elisp_str_rd fuel).
Proof.
  intros r H. pose proof H as (K & _). unfold parse_elisp_str_rd. cbv zeta. rewrite K.
  apply ef_elisp_str_io. exact H.
Qed.
#[local] Hint Resolve ef_parse_elisp_str_rd : efdb.

Lemma ef_take_bytes k : forall acc, ef (take_bytes k acc).
Proof. induction k as [|k IH]; intros acc; cbn [take_bytes]; ef_auto. Qed.
#[local] Hint Resolve ef_take_bytes : efdb.
Lemma ef_decode_utf8_sequence_b c : ef (decode_utf8_sequence_b c).
Proof. unfold decode_utf8_sequence_b. ef_auto. Qed.
#[local] Hint Resolve ef_decode_utf8_sequence_b : efdb.
Lemma ef_decode_utf8_sequence c : ef (decode_utf8_sequence c).
Proof. unfold decode_utf8_sequence. ef_auto. Qed.
#[local] Hint Resolve ef_decode_utf8_sequence : efdb.
Lemma ef_r6rs_char_hex_loop fuel : forall x first, ef (r6rs_char_hex_loop fuel x first).
Proof. induction fuel as [|f IH]; intros x first; cbn [r6rs_char_hex_loop]; ef_auto. Qed.
#[local] Hint Resolve ef_r6rs_char_hex_loop : efdb.
Lemma ef_char_name_loop fuel : forall scratch, ef (char_name_loop fuel scratch).
Proof. induction fuel as [|f IH]; intros scratch; cbn [char_name_loop]; ef_auto. Qed.
#[local] Hint Resolve ef_char_name_loop : efdb.
Lemma ef_open_ended_char x : ef (open_ended_char x).
Proof. unfold open_ended_char. ef_auto. Qed.
#[local] Hint Resolve ef_open_ended_char : efdb.
Lemma ef_parse_r6rs_char fuel : ef (parse_r6rs_char fuel).
Proof. unfold parse_r6rs_char. ef_auto. Qed.
#[local] Hint Resolve ef_parse_r6rs_char : efdb.
Lemma ef_as_char x : ef (Scan.as_char x).
Proof. unfold Scan.as_char. ef_auto. Qed.
#[local] Hint Resolve ef_as_char : efdb.
Lemma ef_decode_elisp_char_escape fuel : ef (decode_elisp_char_escape fuel).
Proof. unfold decode_elisp_char_escape, decode_elisp_hex_escape, decode_elisp_octal_escape. ef_auto. Qed.
#[local] Hint Resolve ef_decode_elisp_char_escape : efdb.
Lemma ef_parse_elisp_char fuel : ef (parse_elisp_char fuel).
Proof. unfold parse_elisp_char. ef_auto. Qed.
#[local] Hint Resolve ef_parse_elisp_char : efdb.

Section NumEof.
  Variable fast : bool.
  Variable std_parse : N -> Z -> f64.

  Lemma ef_fast_loop fuel : forall f e, ef (f64_from_parts_fast_loop fuel f e).
  Proof. induction fuel as [|k IH]; intros f e; cbn [f64_from_parts_fast_loop]; ef_auto. Qed.
  Hint Resolve ef_fast_loop : efdb.
  Lemma ef_f64_from_parts pos sig e : ef (f64_from_parts fast std_parse pos sig e).
  Proof. unfold f64_from_parts. cbv zeta. ef_auto. Qed.
  Hint Resolve ef_f64_from_parts : efdb.
  Lemma ef_skip_digits fuel : ef (skip_digits fuel).
  Proof. induction fuel as [|f IH]; cbn [skip_digits]; ef_auto. Qed.
  Hint Resolve ef_skip_digits : efdb.
  Lemma ef_parse_exponent_overflow fuel p s pe : ef (parse_exponent_overflow fuel p s pe).
  Proof. unfold parse_exponent_overflow. ef_auto. Qed.
  Hint Resolve ef_parse_exponent_overflow : efdb.
  Lemma ef_exponent_digits fuel : forall p s pe se e, ef (exponent_digits fast std_parse fuel p s pe se e).
  Proof. induction fuel as [|f IH]; intros p s pe se e; cbn [exponent_digits]; cbv zeta; ef_auto. Qed.
  Hint Resolve ef_exponent_digits : efdb.
  Lemma ef_parse_exponent fuel p s se : ef (parse_exponent fast std_parse fuel p s se).
  Proof. unfold parse_exponent. ef_auto. Qed.
  Hint Resolve ef_parse_exponent : efdb.
  Lemma ef_decimal_digits fuel : forall s e o, ef (decimal_digits fuel s e o).
  Proof. induction fuel as [|f IH]; intros s e o; cbn [decimal_digits]; cbv zeta; ef_auto. Qed.
  Hint Resolve ef_decimal_digits : efdb.
  Lemma ef_parse_decimal fuel p s e : ef (parse_decimal fast std_parse fuel p s e).
  Proof. unfold parse_decimal. ef_auto. Qed.
  Hint Resolve ef_parse_decimal : efdb.
  Lemma ef_parse_long_integer fuel : forall radix p s e, ef (parse_long_integer fast std_parse fuel radix p s e).
  Proof. induction fuel as [|f IH]; intros radix p s e; cbn [parse_long_integer]; cbv zeta; ef_auto. Qed.
  Hint Resolve ef_parse_long_integer : efdb.
  Lemma ef_parse_num_tail fuel radix p s : ef (parse_num_tail fast std_parse fuel radix p s).
  Proof. unfold parse_num_tail. ef_auto. Qed.
  Hint Resolve ef_parse_num_tail : efdb.
  Lemma ef_num_literal_loop fuel : forall radix p s, ef (num_literal_loop fast std_parse fuel radix p s).
  Proof. induction fuel as [|f IH]; intros radix p s; cbn [num_literal_loop]; ef_auto. Qed.
  Hint Resolve ef_num_literal_loop : efdb.
  Lemma ef_parse_num_literal fuel radix p : ef (parse_num_literal fast std_parse fuel radix p).
  Proof. unfold parse_num_literal. ef_auto. Qed.
End NumEof.
#[local] Hint Resolve ef_f64_from_parts ef_skip_digits ef_parse_exponent_overflow ef_exponent_digits ef_parse_exponent
  ef_decimal_digits ef_parse_decimal ef_parse_long_integer ef_parse_num_tail ef_num_literal_loop ef_parse_num_literal : efdb.

Section TokenEof.
  Variable fast : bool.
  Variable std_parse : N -> Z -> f64.

  Lemma ef_parse_num_token fuel radix p : ef (parse_num_token fast std_parse fuel radix p).
  Proof. unfold parse_num_token. ef_auto. Qed.
  Hint Resolve ef_parse_num_token : efdb.
  Lemma ef_parse_radix_literal fuel radix : ef (parse_radix_literal fast std_parse fuel radix).
  Proof. unfold parse_radix_literal. ef_auto. Qed.
  Hint Resolve ef_parse_radix_literal : efdb.
  Lemma ef_parse_number fuel : ef (parse_number fast std_parse fuel).
  Proof. unfold parse_number. ef_auto. Qed.
  Hint Resolve ef_parse_number : efdb.
  Lemma ef_skip_comment fuel : ef (skip_comment fuel).
  Proof. induction fuel as [|f IH]; cbn [skip_comment]; ef_auto. Qed.
  Hint Resolve ef_skip_comment : efdb.
  Lemma ef_parse_whitespace fuel : ef (parse_whitespace fuel).
  Proof. apply (efv_weaken (eq None)); [intros; exact I|apply efv_parse_whitespace]. Qed.
  Hint Resolve ef_parse_whitespace : efdb.
  Lemma ef_parse_symbol fuel : ef (parse_symbol fuel).
  Proof. unfold parse_symbol. ef_auto. Qed.
  Lemma ef_parse_symbol_suffix fuel p : ef (parse_symbol_suffix fuel p).
  Proof. unfold parse_symbol_suffix. ef_auto. Qed.
  Hint Resolve ef_parse_symbol ef_parse_symbol_suffix : efdb.
  Lemma ef_expect_ident ident : ef (expect_ident ident).
  Proof. induction ident as [|c ident IH]; cbn [expect_ident]; ef_auto. Qed.
  Hint Resolve ef_expect_ident : efdb.
  Lemma ef_end_seq fuel close : ef (end_seq fuel close).
  Proof. unfold end_seq. ef_auto. Qed.
  Lemma ef_expect_end fuel : ef (expect_end fuel).
  Proof. unfold expect_end. ef_auto. Qed.
  Lemma ef_byte_list_loop fuel : forall close acc, ef (byte_list_loop fast std_parse fuel close acc).
  Proof. induction fuel as [|f IH]; intros close acc; cbn [byte_list_loop]; ef_auto. Qed.
  Hint Resolve ef_byte_list_loop : efdb.
  Lemma ef_parse_byte_list fuel close : ef (parse_byte_list fast std_parse fuel close).
  Proof. unfold parse_byte_list. ef_auto. Qed.
End TokenEof.
#[local] Hint Resolve ef_parse_num_token ef_parse_radix_literal ef_parse_number ef_skip_comment ef_parse_whitespace ef_parse_symbol
  ef_parse_symbol_suffix ef_expect_ident ef_end_seq ef_expect_end ef_byte_list_loop ef_parse_byte_list : efdb.

(* Part 2: a stream and a proper prefix of it, side by side *)
Create HintDb trdb discriminated.
Section Trunc.
  Variable rest : list event.

  (* r1 reads the prefix, r2 the whole; both are at the same place inside the prefix *)
  Definition trel (r1 r2 : reader) : Prop :=
    rk r1 = SrcIo /\ rk r2 = SrcIo /\ rline r1 = rline r2 /\ rcol r1 = rcol r2 /\ rpending r1 = rpending r2 /\
    exists suf, rinput r1 = suf /\ rinput r2 = suf ++ rest /\ (rpending r2 = true -> exists b s', suf = EByte b :: s').
  (* the whole fails (nothing to show) | same result, still side by side | the prefix
     ran out: its reader is at the end, its result a value or an EOF-like error *)
  Definition tc {A} (m : M A) (r1 r2 : reader) : Prop :=
    (exists e, fst (m r2) = Err e) \/
    (fst (m r1) = fst (m r2) /\ trel (snd (m r1)) (snd (m r2))) \/
    (ateof (snd (m r1)) /\ okres (fst (m r1))).
  Definition tr {A} (m : M A) : Prop := forall r1 r2, trel r1 r2 -> tc m r1 r2.
  (* the same with a bound V on the values the prefix may return once it ran out:
     `tr` is `tv (fun _ => True)` *)
  Definition tcv {A} (V : A -> Prop) (m : M A) (r1 r2 : reader) : Prop :=
    (exists e, fst (m r2) = Err e) \/
    (fst (m r1) = fst (m r2) /\ trel (snd (m r1)) (snd (m r2))) \/
    (ateof (snd (m r1)) /\ okv V (fst (m r1))).
  Definition tv {A} (V : A -> Prop) (m : M A) : Prop := forall r1 r2, trel r1 r2 -> tcv V m r1 r2.

  Lemma tv_weaken {A} (V W : A -> Prop) (m : M A) : (forall a, V a -> W a) -> tv V m -> tv W m.
  Proof.
    intros Hw Hm r1 r2 H. destruct (Hm r1 r2 H) as [E|[E|(Ha & Ho)]]; [left; exact E|right; left; exact E|].
    right. right. split; [exact Ha|]. destruct (fst (m r1)); [apply Hw|]; exact Ho.
  Qed.
  (* sequencing: what follows must also behave at the end of the input, on the
     values the first step may return there *)
  Lemma tv_bind {A B} (V : A -> Prop) (W : B -> Prop) (m : M A) (f : A -> M B) :
    tv V m -> (forall a, tv W (f a)) -> (forall a, V a -> efv W (f a)) -> tv W (bind m f).
  Proof.
    intros Hm Hf He r1 r2 H. destruct (Hm r1 r2 H) as [(e & E)|[(E & Hr)|(Ha & Ho)]].
    - left. unfold bind. destruct (m r2) as [[a|e'] r2']; cbn [fst] in E; [discriminate|]. eexists; reflexivity.
    - destruct (m r1) as [[a1|e1] r1'] eqn:E1; destruct (m r2) as [[a2|e2] r2'] eqn:E2; cbn [fst snd] in E, Hr; try discriminate.
      + inversion E; subst a2. unfold tcv, bind. rewrite E1, E2. apply Hf. exact Hr.
      + left. unfold bind. rewrite E2. eexists; reflexivity.
    - right. right. unfold bind. destruct (m r1) as [[a1|e1] r1']; cbn [fst snd okv] in *.
      + apply (He a1 Ho). exact Ha.
      + split; assumption.
  Qed.
  Lemma tr_bind_v {A B} (V : A -> Prop) (m : M A) (f : A -> M B) :
    tv V m -> (forall a, tr (f a)) -> (forall a, V a -> ef (f a)) -> tr (bind m f).
  Proof. exact (tv_bind V (fun _ => True) m f). Qed.
  Lemma tr_bind {A B} (m : M A) (f : A -> M B) : tr m -> (forall a, tr (f a)) -> (forall a, ef (f a)) -> tr (bind m f).
  Proof. intros Hm Hf He. apply (tr_bind_v (fun _ => True) m f Hm Hf). intros a _. apply He. Qed.
  Lemma tr_ext {A} (m m' : M A) : (forall r, m r = m' r) -> tr m' -> tr m.
  Proof. intros E H r1 r2 Hr. unfold tc. rewrite !E. apply H. exact Hr. Qed.

  Lemma tv_ret {A} (V : A -> Prop) (a : A) : tv V (ret a).
  Proof. intros r1 r2 H. right. left. split; [reflexivity|exact H]. Qed.
  Lemma tv_fuel {A} (V : A -> Prop) : tv V out_of_fuel.
  Proof. intros r1 r2 H. left. eexists; reflexivity. Qed.
  Lemma tv_error {A} (V : A -> Prop) c : tv V (error c).
  Proof. intros r1 r2 H. left. unfold error. destruct (r_position r2). eexists; reflexivity. Qed.
  Lemma tr_ret {A} (a : A) : tr (ret a).
  Proof. exact (tv_ret (fun _ => True) a). Qed.
  Lemma tr_fuel {A} : tr (@out_of_fuel A).
  Proof. exact (tv_fuel (fun _ => True)). Qed.
  Lemma tr_error {A} c : tr (@error A c).
  Proof. exact (tv_error (fun _ => True) c). Qed.
  Lemma tr_peek_error {A} c : tr (@peek_error A c).
  Proof. intros r1 r2 H. left. unfold peek_error. destruct (r_peek_position r2). eexists; reflexivity. Qed.
  Lemma tr_error_consume {A} c : tr (@error_consume A c).
  Proof. intros r1 r2 H. left. unfold error_consume, peek_error. destruct (r_peek_position r2). eexists; reflexivity. Qed.
  Lemma tv_position (V : N * N -> Prop) : tv V position.
  Proof.
    intros r1 r2 H. right. left. pose proof H as (K1 & K2 & L & C & _). unfold position, r_position. rewrite L, C. cbn [fst snd]. split; [reflexivity|exact H].
  Qed.
  Lemma tr_position : tr position.
  Proof. exact (tv_position (fun _ => True)). Qed.

  Lemma mk_trel ln cl p suf : (p = true -> exists b s', suf = EByte b :: s') ->
    trel {| rk := SrcIo; rline := ln; rcol := cl; rpending := p; rinput := suf |}
         {| rk := SrcIo; rline := ln; rcol := cl; rpending := p; rinput := suf ++ rest |}.
  Proof.
    intros H. unfold trel. cbn [rk rline rcol rpending rinput]. repeat (split; [reflexivity|]).
    exists suf. split; [reflexivity|]. split; [reflexivity|exact H].
  Qed.
  Lemma consume_trel ln cl b s' :
    trel (let '(ln', cl') := advance ln cl b in {| rk := SrcIo; rline := ln'; rcol := cl'; rpending := false; rinput := s' |})
         (let '(ln', cl') := advance ln cl b in {| rk := SrcIo; rline := ln'; rcol := cl'; rpending := false; rinput := s' ++ rest |}).
  Proof. destruct (advance ln cl b) as [l2 c2]. apply (mk_trel l2 c2 false s'). discriminate. Qed.
  Lemma tv_peek : tv (eq None) peek.
  Proof.
    intros [k1 ln1 cl1 p1 i1] [k2 ln2 cl2 p2 i2] (K1 & K2 & L & C & P & suf & I1 & I2 & Hp).
    cbn [rk rline rcol rpending rinput] in *. subst. destruct p2.
    - destruct (Hp eq_refl) as (b & s' & ->). right. left. split; [reflexivity|].
      apply (mk_trel ln2 cl2 true (EByte b :: s')). eauto.
    - destruct (skip_split suf) as [[Es E2]|(ev & s' & Es & Hne & E2)].
      + right. right. unfold peek, r_peek. cbn [rpending rinput]. rewrite Es. split; [repeat split|reflexivity].
      + destruct ev as [b| |e0]; [right; left|contradiction|left];
          unfold peek, r_peek; cbn [rpending rinput rk rline rcol]; rewrite ?Es, E2; cbn [fst snd].
        * split; [reflexivity|]. apply (mk_trel ln2 cl2 true (EByte b :: s')). eauto.
        * eexists; reflexivity.
  Qed.
  Lemma tv_next : tv (eq None) next_char.
  Proof.
    intros [k1 ln1 cl1 p1 i1] [k2 ln2 cl2 p2 i2] (K1 & K2 & L & C & P & suf & I1 & I2 & Hp).
    cbn [rk rline rcol rpending rinput] in *. subst. destruct p2.
    - destruct (Hp eq_refl) as (b & s' & ->). right. left. split; [reflexivity|]. apply consume_trel.
    - destruct (skip_split suf) as [[Es E2]|(ev & s' & Es & Hne & E2)].
      + right. right. unfold next_char, r_next. cbn [rpending rinput]. rewrite Es. split; [repeat split|reflexivity].
      + destruct ev as [b| |e0]; [right; left|contradiction|left];
          unfold next_char, r_next; cbn [rpending rinput rk rline rcol]; rewrite ?Es, E2; cbn [fst snd].
        * split; [reflexivity|]. apply consume_trel.
        * eexists; reflexivity.
  Qed.
  Lemma tr_peek : tr peek.
  Proof. apply (tv_weaken (eq None)); [intros; exact I|exact tv_peek]. Qed.
  Lemma tr_next : tr next_char.
  Proof. apply (tv_weaken (eq None)); [intros; exact I|exact tv_next]. Qed.
  Lemma discard_trel r1 r2 : trel r1 r2 -> trel (r_discard r1) (r_discard r2).
  Proof.
    destruct r1 as [k1 ln1 cl1 p1 i1], r2 as [k2 ln2 cl2 p2 i2]. intros (K1 & K2 & L & C & P & suf & I1 & I2 & Hp).
    cbn [rk rline rcol rpending rinput] in *. subst. unfold r_discard. cbn [rk rpending rinput]. destruct p2.
    - destruct (Hp eq_refl) as (b & s' & ->). cbn [app]. unfold consume. cbn [rk rline rcol]. apply consume_trel.
    - apply (mk_trel ln2 cl2 false suf). discriminate.
  Qed.
  (* the prefix cannot run out in a discard *)
  Lemma tv_eat (V : unit -> Prop) : tv V eat_char.
  Proof. intros r1 r2 H. right. left. unfold eat_char. cbn [fst snd]. split; [reflexivity|apply discard_trel; exact H]. Qed.
  Lemma tr_eat : tr eat_char.
  Proof. exact (tv_eat (fun _ => True)). Qed.

  Lemma tv_peek_or_null : tv (eq 0) peek_or_null.
  Proof. apply (tv_bind (eq None) _ _ _ tv_peek); [intros o; apply tv_ret|]. intros o <-. apply efv_ret. reflexivity. Qed.
  Lemma tv_next_or c : eofcode c = true ->
    tv (fun _ => False) (o <- next_char;; match o with Some b => ret b | None => error c end).
  Proof.
    intros Hc. apply (tv_bind (eq None) _ _ _ tv_next); [intros [b|]; [apply tv_ret|apply tv_error]|].
    intros o <-. apply efv_error. exact Hc.
  Qed.
  Lemma tv_take_bytes k : forall acc, tv (fun _ => False) (take_bytes k acc).
  Proof.
    induction k as [|k IH]; intros acc; cbn [take_bytes]; [apply tv_ret|].
    apply (tv_bind (eq None) _ _ _ tv_next); [intros [c|]; [apply IH|apply tv_error]|].
    intros o <-. apply efv_error. reflexivity.
  Qed.
  Lemma tv_decode_utf8_sequence_b c : tv (fun _ => False) (decode_utf8_sequence_b c).
  Proof.
    unfold decode_utf8_sequence_b. destruct (in_range 192 223 c || in_range 224 247 c); [|apply tv_error].
    apply (tv_bind (fun _ => False) _ _ _ (tv_take_bytes _ _)); [|intros _ []].
    intros b. destruct (utf8_valid b); [apply tv_ret|apply tv_error].
  Qed.
  Lemma tv_skip_comment fuel : tv (eq false) (skip_comment fuel).
  Proof.
    induction fuel as [|f IH]; cbn [skip_comment]; [apply tv_fuel|].
    apply (tv_bind (eq None) _ _ _ tv_next); [|intros o <-; apply efv_ret; reflexivity].
    intros [c|]; [|apply tv_ret]. destruct (c =? 10); [apply tv_ret|exact IH].
  Qed.
  Lemma tv_parse_whitespace fuel : tv (eq None) (parse_whitespace fuel).
  Proof.
    induction fuel as [|f IH]; cbn [parse_whitespace]; [apply tv_fuel|].
    apply (tv_bind (eq None) _ _ _ tv_peek); [|intros o <-; apply efv_ret; reflexivity].
    intros [c|]; [|apply tv_ret]. destruct (c =? 59).
    - apply (tv_bind (eq false) _ _ _ (tv_skip_comment f)); [|intros more <-; apply efv_ret; reflexivity].
      intros [|]; [exact IH|apply tv_ret].
    - destruct (memb c [32; 10; 9; 13; 12]); [|apply tv_ret].
      apply (tv_bind (fun _ => False) _ _ _ (tv_eat _)); [intros _; exact IH|intros _ []].
  Qed.

  (* the bound `fun _ => False` spelled out: having run out, the prefix can only fail *)
  Definition tcs {A} (m : M A) (r1 r2 : reader) : Prop :=
    (exists e, fst (m r2) = Err e) \/
    (fst (m r1) = fst (m r2) /\ trel (snd (m r1)) (snd (m r2))) \/
    (ateof (snd (m r1)) /\ exists e, fst (m r1) = Err e /\ eofish e).
  Definition trs {A} (m : M A) : Prop := forall r1 r2, trel r1 r2 -> tcs m r1 r2.
  Lemma trs_tv {A} (m : M A) : trs m -> tv (fun _ => False) m.
  Proof.
    intros H r1 r2 Hr. destruct (H r1 r2 Hr) as [E|[E|(Ha & e & E & He)]]; [left; exact E|right; left; exact E|].
    right. right. split; [exact Ha|]. rewrite E. exact He.
  Qed.
  Lemma trs_tr {A} (m : M A) : trs m -> tr m.
  Proof. intros H. apply (tv_weaken (fun _ => False)); [intros _ []|apply trs_tv; exact H]. Qed.

  (* a step whose value, when the prefix runs out, is related to the value the whole stream yields *)
  Definition tcq {A} (Q : A -> A -> Prop) (m : M A) (r1 r2 : reader) : Prop :=
    (exists e, fst (m r2) = Err e) \/
    (fst (m r1) = fst (m r2) /\ trel (snd (m r1)) (snd (m r2))) \/
    (ateof (snd (m r1)) /\ match fst (m r1) with Err e => eofish e | Ok a1 => exists a2, fst (m r2) = Ok a2 /\ Q a1 a2 end).
  Lemma tr_bind_q {A B} (Q : A -> A -> Prop) (m : M A) (f : A -> M B) :
    (forall r1 r2, trel r1 r2 -> tcq Q m r1 r2) -> (forall a, tr (f a)) ->
    (forall a1 a2, Q a1 a2 -> (forall r, exists e, fst (f a2 r) = Err e) \/ ef (f a1)) -> tr (bind m f).
  Proof.
    intros Hm Hf Hq r1 r2 H. destruct (Hm r1 r2 H) as [(e & E)|[(E & Hr)|(Ha & Ho)]].
    - left. unfold bind. destruct (m r2) as [[a|e'] r2']; cbn [fst] in E; [discriminate|]. eexists; reflexivity.
    - destruct (m r1) as [[a1|e1] r1'] eqn:E1; destruct (m r2) as [[a2|e2] r2'] eqn:E2; cbn [fst snd] in E, Hr; try discriminate.
      + inversion E; subst a2. unfold tc, bind. rewrite E1, E2. apply Hf. exact Hr.
      + left. unfold bind. rewrite E2. eexists; reflexivity.
    - unfold tc, bind. destruct (m r1) as [[a1|e1] r1']; cbn [fst snd] in *.
      + destruct Ho as (a2 & E2 & HQ). destruct (m r2) as [[a2'|e2] r2']; cbn [fst] in E2; [|discriminate]. inversion E2; subst a2'.
        destruct (Hq a1 a2 HQ) as [Hall|He]; [left; apply Hall|right; right; apply He; exact Ha].
      + right. right. split; assumption.
  Qed.
  Lemma char_name_extends fuel : forall scratch r s r', char_name_loop fuel scratch r = (Ok s, r') -> exists ext, s = scratch ++ ext.
  Proof.
    induction fuel as [|f IH]; intros scratch r s r' E; cbn [char_name_loop] in E; [discriminate|].
    unfold bind in E. destruct (peek r) as [[[c|]|e] r1]; try discriminate.
    - destruct (is_delimiter_chr c); [inversion E; subst; exists []; rewrite app_nil_r; reflexivity|].
      unfold eat_char in E. cbn [fst snd] in E. destruct (IH _ _ _ _ E) as [ext ->]. exists (c :: ext). rewrite <- app_assoc. reflexivity.
    - inversion E; subst. exists []. rewrite app_nil_r. reflexivity.
  Qed.
  Lemma tcq_char_name_loop fuel : forall scratch r1 r2, trel r1 r2 ->
    tcq (fun s1 s2 => exists ext, s2 = s1 ++ ext) (char_name_loop fuel scratch) r1 r2.
  Proof.
    induction fuel as [|f IH]; intros scratch r1 r2 H; [left; eexists; reflexivity|].
    destruct (tv_peek r1 r2 H) as [(e & E)|[(E & Hr)|(Ha & Ho)]].
    - left. cbn [char_name_loop]. unfold bind. destruct (peek r2) as [[a|e'] r2']; cbn [fst] in E; [discriminate|]. eexists; reflexivity.
    - destruct (peek r1) as [[o1|e1] r1'] eqn:E1; destruct (peek r2) as [[o2|e2] r2'] eqn:E2; cbn [fst snd] in E, Hr; try discriminate.
      + inversion E; subst o2. destruct o1 as [c|].
        * destruct (is_delimiter_chr c) eqn:D.
          -- right. left. cbn [char_name_loop]. unfold bind. rewrite E1, E2, D. split; [reflexivity|exact Hr].
          -- specialize (IH (scratch ++ [c]) _ _ (discard_trel _ _ Hr)). unfold tcq in *. cbn [char_name_loop]. unfold bind, eat_char. rewrite E1, E2, D. exact IH.
        * right. left. cbn [char_name_loop]. unfold bind. rewrite E1, E2. split; [reflexivity|exact Hr].
      + left. cbn [char_name_loop]. unfold bind. rewrite E2. eexists; reflexivity.
    - unfold tcq. destruct (peek r1) as [[o|e] r'] eqn:E; cbn [fst snd okv] in Ha, Ho.
      + destruct Ho.
        assert (E1 : char_name_loop (S f) scratch r1 = (Ok scratch, r')) by (cbn [char_name_loop]; unfold bind; rewrite E; reflexivity).
        rewrite E1. cbn [fst snd].
        destruct (char_name_loop (S f) scratch r2) as [[s2|e2] r2''] eqn:EL; cbn [fst]; [|left; eexists; reflexivity].
        right. right. split; [exact Ha|]. exists s2. split; [reflexivity|].
        exact (char_name_extends (S f) scratch r2 s2 r2'' EL).
      + right. right. cbn [char_name_loop]. unfold bind. rewrite E. split; [exact Ha|exact Ho].
  Qed.
  Lemma starts_with_prefix a ext : starts_with a (a ++ ext) = true.
  Proof. induction a as [|x a IH]; cbn [starts_with app]; [reflexivity|]. rewrite N.eqb_refl, IH. reflexivity. Qed.
  Lemma lookup_prefix a ext l c : lookup_name (a ++ ext) l = Some c -> existsb (fun kv : bytes * N => starts_with a (fst kv)) l = true.
  Proof.
    induction l as [|[k v] l IH]; cbn [lookup_name existsb fst]; [discriminate|].
    destruct (beq_bytes k (a ++ ext)) eqn:E.
    - intros _. apply beq_bytes_eq in E. subst k. rewrite starts_with_prefix. reflexivity.
    - intros H. rewrite (IH H). apply orb_true_r.
  Qed.

  Lemma tr_char_name_tail fuel c n :
    tr (name <- char_name_loop fuel [c; n];;
        match lookup_name name CHAR_NAMES with
        | Some c0 => ret c0
        | None =>
            o2 <- peek;;
            match o2 with
            | Some _ => error InvalidCharacterConstant
            | None => if existsb (fun kv : bytes * N => starts_with name (fst kv)) CHAR_NAMES
                      then error EofWhileParsingCharacterConstant else error InvalidCharacterConstant
            end
        end).
  Proof.
    assert (Hfail : forall name r, exists e,
              fst ((o2 <- peek;;
                    match o2 with
                    | Some _ => error InvalidCharacterConstant
                    | None => if existsb (fun kv : bytes * N => starts_with name (fst kv)) CHAR_NAMES
                              then error EofWhileParsingCharacterConstant else error InvalidCharacterConstant
                    end) r) = @Err N e).
    { intros name r. unfold bind. destruct (peek r) as [[[x|]|e] r']; cbn [fst].
      - unfold error. destruct (r_position r'). eexists; reflexivity.
      - destruct (existsb _ CHAR_NAMES); unfold error; destruct (r_position r'); eexists; reflexivity.
      - eexists; reflexivity. }
    apply (tr_bind_q (fun s1 s2 => exists ext, s2 = s1 ++ ext)); [intros r1 r2 H; apply tcq_char_name_loop; exact H| |].
    - intros name. destruct (lookup_name name CHAR_NAMES); [apply tr_ret|]. intros r1 r2 _. left. apply Hfail.
    - intros a1 a2 [ext E2]. subst a2. destruct (lookup_name (a1 ++ ext) CHAR_NAMES) as [c0|] eqn:El.
      + right. destruct (lookup_name a1 CHAR_NAMES); [apply ef_ret|]. apply (ef_bind_v _ _ _ efv_peek). intros o <-.
        rewrite (lookup_prefix a1 ext CHAR_NAMES c0 El). apply ef_error. reflexivity.
      + left. intros r. apply Hfail.
  Qed.
  Lemma tr_if {A} (b : bool) (m1 m2 : M A) : tr m1 -> tr m2 -> tr (if b then m1 else m2).
  Proof. intros H1 H2. destruct b; assumption. Qed.
  (* a sequence whose first step has the bound H: what follows is entered at the
     end of the input only with a value inside the bound *)
  Ltac tr_via H := apply (tr_bind_v _ _ _ H); [intros ?|intros ? []].
  Ltac tr_step :=
    lazymatch goal with
    | |- tr (ret _) => apply tr_ret
    | |- tr out_of_fuel => apply tr_fuel
    | |- tr eat_char => apply tr_eat
    | |- tr (error _) => apply tr_error
    | |- tr (peek_error _) => apply tr_peek_error
    | |- tr (error_consume _) => apply tr_error_consume
    | |- tr position => apply tr_position
    | |- tr peek => apply tr_peek
    | |- tr next_char => apply tr_next
    | |- tr (if ?x then _ else _) => first [apply tr_if|destruct x]
    | |- tr (match ?x with _ => _ end) => destruct x
    | |- tr (bind peek _) => tr_via tv_peek; [|solve [ef_auto]]
    | |- tr (bind next_char _) => tr_via tv_next; [|solve [ef_auto]]
    | |- tr (bind peek_or_null _) => tr_via tv_peek_or_null; [|at_zero; solve [ef_auto]]
    | |- tr (bind (parse_whitespace ?fuel) _) => tr_via (tv_parse_whitespace fuel); [|solve [ef_auto]]
    | |- tr (bind next_or_eof _) => tr_via (tv_next_or EofWhileParsingString eq_refl)
    | |- tr (bind next_or_eof_char _) => tr_via (tv_next_or EofWhileParsingCharacterConstant eq_refl)
    | |- tr (bind eat_char _) => tr_via (tv_eat (fun _ => False))
    | |- tr (bind (decode_utf8_sequence_b ?c) _) => tr_via (tv_decode_utf8_sequence_b c)
    | |- tr (bind (take_bytes ?k ?acc) _) => tr_via (tv_take_bytes k acc)
    | |- tr (bind (char_name_loop _ _) _) => apply tr_char_name_tail
    | |- tr (bind _ _) => apply tr_bind; [|intros ?|intros ?; solve [ef_auto]]
    | |- tr _ => solve [auto 1 with trdb nocore]
    end.
  Ltac tr_auto := repeat tr_step.

Lemma tr_peek_or_null : tr peek_or_null.
Proof. apply (tv_weaken (eq 0)); [intros; exact I|exact tv_peek_or_null]. Qed.
Lemma tr_next_or_eof : tr next_or_eof.
Proof. apply (tv_weaken (fun _ => False)); [intros _ []|exact (tv_next_or EofWhileParsingString eq_refl)]. Qed.
Lemma tr_next_or_eof_char : tr next_or_eof_char.
Proof. apply (tv_weaken (fun _ => False)); [intros _ []|exact (tv_next_or EofWhileParsingCharacterConstant eq_refl)]. Qed.
Lemma tr_as_str b : tr (Scan.as_str b).
Proof. unfold Scan.as_str. tr_auto. Qed.
#[local] Hint Resolve tr_peek_or_null tr_next_or_eof tr_next_or_eof_char tr_as_str : trdb.

Lemma tr_scan_symbol_io fuel : forall scratch, tr (scan_symbol_io fuel scratch).
Proof. induction fuel as [|f IH]; intros scratch; cbn [scan_symbol_io]; tr_auto. Qed.
Lemma tr_parse_symbol_rd fuel scratch : tr (parse_symbol_rd fuel scratch).
Proof.
  intros r1 r2 H. pose proof H as (K1 & K2 & _). unfold tc, parse_symbol_rd. rewrite K1, K2.
  pose proof tr_scan_symbol_io. assert (Hs : tr (b <- scan_symbol_io fuel scratch ;; Scan.as_str b)) by tr_auto. apply Hs. exact H.
Qed.
#[local] Hint Resolve tr_parse_symbol_rd : trdb.

Lemma tr_hex_escape_loop fuel : forall x, tr (hex_escape_loop fuel x).
Proof. induction fuel as [|f IH]; intros x; cbn [hex_escape_loop]; tr_auto. Qed.
Lemma tr_parse_r6rs_escape fuel : tr (parse_r6rs_escape fuel).
Proof. pose proof tr_hex_escape_loop. unfold parse_r6rs_escape, decode_r6rs_hex_escape. tr_auto. Qed.
#[local] Hint Resolve tr_parse_r6rs_escape : trdb.

Lemma tr_r6rs_str_io fuel : forall scratch, tr (r6rs_str_io fuel scratch).
Proof. induction fuel as [|f IH]; intros scratch; cbn [r6rs_str_io]; tr_auto. Qed.
Lemma tr_parse_r6rs_str_rd fuel : tr (parse_r6rs_str_rd fuel).
Proof.
  intros r1 r2 H. pose proof H as (K1 & K2 & _). unfold tc, parse_r6rs_str_rd. rewrite K1, K2.
  pose proof tr_r6rs_str_io. assert (Hs : tr (b <- r6rs_str_io fuel [] ;; Scan.as_str b)) by tr_auto. apply Hs. exact H.
Qed.
#[local] Hint Resolve tr_parse_r6rs_str_rd : trdb.

Lemma tr_elisp_hex_loop fuel : forall x, tr (elisp_hex_loop fuel x).
Proof. induction fuel as [|f IH]; intros x; cbn [elisp_hex_loop]; tr_auto. Qed.
Lemma tr_decode_elisp_uni_escape k : forall x, tr (decode_elisp_uni_escape k x).
Proof. induction k as [|k IH]; intros x; cbn [decode_elisp_uni_escape]; tr_auto. Qed.
Lemma tr_elisp_octal_loop fuel : forall x, tr (elisp_octal_loop fuel x).
Proof. induction fuel as [|f IH]; intros x; cbn [elisp_octal_loop]; tr_auto. Qed.
Lemma tr_elisp_char_escape_of x : tr (elisp_char_escape_of x).
Proof. unfold elisp_char_escape_of. tr_auto. Qed.
Lemma tr_elisp_uni_escape_of x : tr (elisp_uni_escape_of x).
Proof. unfold elisp_uni_escape_of. tr_auto. Qed.
#[local] Hint Resolve tr_elisp_hex_loop tr_decode_elisp_uni_escape tr_elisp_octal_loop tr_elisp_char_escape_of tr_elisp_uni_escape_of : trdb.
Lemma tr_parse_elisp_escape fuel : tr (parse_elisp_escape fuel).
Proof. unfold parse_elisp_escape, decode_elisp_hex_escape, decode_elisp_octal_escape. tr_auto. Qed.
#[local] Hint Resolve tr_parse_elisp_escape : trdb.
Lemma tr_elisp_finish fl scratch : tr (elisp_finish fl scratch).
Proof. unfold elisp_finish. tr_auto. Qed.
#[local] Hint Resolve tr_elisp_finish : trdb.

Lemma tr_elisp_str_io fuel : forall fl scratch, tr (elisp_str_io fuel fl scratch).
Proof. induction fuel as [|f IH]; intros fl scratch; cbn [elisp_str_io]; cbv zeta; tr_auto. Qed.
Lemma tr_parse_elisp_str_rd fuel : tr (parse_elisp_str_rd fuel).
Proof.
  intros r1 r2 H. pose proof H as (K1 & K2 & _). unfold tc, parse_elisp_str_rd. cbv zeta. rewrite K1, K2.
  apply tr_elisp_str_io. exact H.
Qed.
#[local] Hint Resolve tr_parse_elisp_str_rd : trdb.

Lemma tr_take_bytes k : forall acc, tr (take_bytes k acc).
Proof. intros acc. apply (tv_weaken (fun _ => False)); [intros _ []|apply tv_take_bytes]. Qed.
#[local] Hint Resolve tr_take_bytes : trdb.
Lemma tr_decode_utf8_sequence_b c : tr (decode_utf8_sequence_b c).
Proof. apply (tv_weaken (fun _ => False)); [intros _ []|apply tv_decode_utf8_sequence_b]. Qed.
#[local] Hint Resolve tr_decode_utf8_sequence_b : trdb.
Lemma tr_decode_utf8_sequence c : tr (decode_utf8_sequence c).
Proof. unfold decode_utf8_sequence. tr_auto. Qed.
#[local] Hint Resolve tr_decode_utf8_sequence : trdb.
Lemma tr_r6rs_char_hex_loop fuel : forall x first, tr (r6rs_char_hex_loop fuel x first).
Proof. induction fuel as [|f IH]; intros x first; cbn [r6rs_char_hex_loop]; tr_auto. Qed.
Lemma tr_char_name_loop fuel : forall scratch, tr (char_name_loop fuel scratch).
Proof. induction fuel as [|f IH]; intros scratch; cbn [char_name_loop]; tr_auto. Qed.
Lemma tr_open_ended_char x : tr (open_ended_char x).
Proof. unfold open_ended_char. tr_auto. Qed.
#[local] Hint Resolve tr_r6rs_char_hex_loop tr_char_name_loop tr_open_ended_char : trdb.
Lemma tr_parse_r6rs_char fuel : tr (parse_r6rs_char fuel).
Proof. unfold parse_r6rs_char. tr_auto. Qed.
#[local] Hint Resolve tr_parse_r6rs_char : trdb.
Lemma tr_as_char x : tr (Scan.as_char x).
Proof. unfold Scan.as_char. tr_auto. Qed.
#[local] Hint Resolve tr_as_char : trdb.
Lemma tr_decode_elisp_char_escape fuel : tr (decode_elisp_char_escape fuel).
Proof. unfold decode_elisp_char_escape, decode_elisp_hex_escape, decode_elisp_octal_escape. tr_auto. Qed.
#[local] Hint Resolve tr_decode_elisp_char_escape : trdb.
Lemma tr_parse_elisp_char fuel : tr (parse_elisp_char fuel).
Proof. unfold parse_elisp_char. tr_auto. Qed.
#[local] Hint Resolve tr_parse_elisp_char : trdb.

Section NumTr.
  Variable fast : bool.
  Variable std_parse : N -> Z -> f64.

  Lemma tr_fast_loop fuel : forall f e, tr (f64_from_parts_fast_loop fuel f e).
  Proof. induction fuel as [|k IH]; intros f e; cbn [f64_from_parts_fast_loop]; tr_auto. Qed.
  Lemma tr_f64_from_parts pos sig e : tr (f64_from_parts fast std_parse pos sig e).
  Proof. pose proof tr_fast_loop. unfold f64_from_parts. cbv zeta. tr_auto. Qed.
  Hint Resolve tr_f64_from_parts : trdb.
  Lemma tr_skip_digits fuel : tr (skip_digits fuel).
  Proof. induction fuel as [|f IH]; cbn [skip_digits]; tr_auto. Qed.
  Hint Resolve tr_skip_digits : trdb.
  Lemma tr_parse_exponent_overflow fuel p s pe : tr (parse_exponent_overflow fuel p s pe).
  Proof. unfold parse_exponent_overflow. tr_auto. Qed.
  Hint Resolve tr_parse_exponent_overflow : trdb.
  Lemma tr_exponent_digits fuel : forall p s pe se e, tr (exponent_digits fast std_parse fuel p s pe se e).
  Proof. induction fuel as [|f IH]; intros p s pe se e; cbn [exponent_digits]; cbv zeta; tr_auto. Qed.
  Hint Resolve tr_exponent_digits : trdb.
  Lemma tr_parse_exponent fuel p s se : tr (parse_exponent fast std_parse fuel p s se).
  Proof. unfold parse_exponent. tr_auto. Qed.
  Hint Resolve tr_parse_exponent : trdb.
  Lemma tr_decimal_digits fuel : forall s e o, tr (decimal_digits fuel s e o).
  Proof. induction fuel as [|f IH]; intros s e o; cbn [decimal_digits]; cbv zeta; tr_auto. Qed.
  Hint Resolve tr_decimal_digits : trdb.
  Lemma tr_parse_decimal fuel p s e : tr (parse_decimal fast std_parse fuel p s e).
  Proof. unfold parse_decimal. tr_auto. Qed.
  Hint Resolve tr_parse_decimal : trdb.
  Lemma tr_parse_long_integer fuel : forall radix p s e, tr (parse_long_integer fast std_parse fuel radix p s e).
  Proof. induction fuel as [|f IH]; intros radix p s e; cbn [parse_long_integer]; cbv zeta; tr_auto. Qed.
  Hint Resolve tr_parse_long_integer : trdb.
  Lemma tr_parse_num_tail fuel radix p s : tr (parse_num_tail fast std_parse fuel radix p s).
  Proof. unfold parse_num_tail. tr_auto. Qed.
  Hint Resolve tr_parse_num_tail : trdb.
  Lemma tr_num_literal_loop fuel : forall radix p s, tr (num_literal_loop fast std_parse fuel radix p s).
  Proof. induction fuel as [|f IH]; intros radix p s; cbn [num_literal_loop]; tr_auto. Qed.
  Hint Resolve tr_num_literal_loop : trdb.
  Lemma tr_parse_num_literal fuel radix p : tr (parse_num_literal fast std_parse fuel radix p).
  Proof. unfold parse_num_literal. tr_auto. Qed.
End NumTr.
#[local] Hint Resolve tr_f64_from_parts tr_skip_digits tr_parse_exponent_overflow tr_exponent_digits tr_parse_exponent
  tr_decimal_digits tr_parse_decimal tr_parse_long_integer tr_parse_num_tail tr_num_literal_loop tr_parse_num_literal : trdb.

Section TokenTr.
  Variable ro : parse_options.
  Variable alpha : N -> bool.
  Variable fast : bool.
  Variable std_parse : N -> Z -> f64.

  Lemma tr_parse_num_token fuel radix p : tr (parse_num_token fast std_parse fuel radix p).
  Proof. unfold parse_num_token. tr_auto. Qed.
  Hint Resolve tr_parse_num_token : trdb.
  Lemma tr_parse_radix_literal fuel radix : tr (parse_radix_literal fast std_parse fuel radix).
  Proof. unfold parse_radix_literal. tr_auto. Qed.
  Hint Resolve tr_parse_radix_literal : trdb.
  Lemma tr_parse_number fuel : tr (parse_number fast std_parse fuel).
  Proof. unfold parse_number. tr_auto. Qed.
  Hint Resolve tr_parse_number : trdb.
  Lemma tr_skip_comment fuel : tr (skip_comment fuel).
  Proof. apply (tv_weaken (eq false)); [intros; exact I|apply tv_skip_comment]. Qed.
  Hint Resolve tr_skip_comment : trdb.
  Lemma tr_parse_whitespace fuel : tr (parse_whitespace fuel).
  Proof. apply (tv_weaken (eq None)); [intros; exact I|apply tv_parse_whitespace]. Qed.
  Hint Resolve tr_parse_whitespace : trdb.
  Lemma tr_parse_symbol fuel : tr (parse_symbol fuel).
  Proof. unfold parse_symbol. tr_auto. Qed.
  Lemma tr_parse_symbol_suffix fuel p : tr (parse_symbol_suffix fuel p).
  Proof. unfold parse_symbol_suffix. tr_auto. Qed.
  Hint Resolve tr_parse_symbol tr_parse_symbol_suffix : trdb.
  Lemma tr_expect_ident ident : tr (expect_ident ident).
  Proof. induction ident as [|c ident IH]; cbn [expect_ident]; tr_auto. Qed.
  Hint Resolve tr_expect_ident : trdb.
  Lemma tr_parse_token fuel b : tr (parse_token ro alpha fast std_parse fuel b).
  Proof. unfold parse_token. fold (@error_consume token ExpectedSomeValue). tr_auto. Qed.
  Lemma tr_end_seq fuel close : tr (end_seq fuel close).
  Proof. unfold end_seq. tr_auto. Qed.
  Lemma tr_expect_end fuel : tr (expect_end fuel).
  Proof. unfold expect_end. tr_auto. Qed.
  Lemma tr_byte_list_loop fuel : forall close acc, tr (byte_list_loop fast std_parse fuel close acc).
  Proof. induction fuel as [|f IH]; intros close acc; cbn [byte_list_loop]; tr_auto. Qed.
  Lemma tr_parse_byte_list fuel close : tr (parse_byte_list fast std_parse fuel close).
  Proof. pose proof tr_byte_list_loop. unfold parse_byte_list. tr_auto. Qed.
End TokenTr.

  Definition pokres {A} (x : pres A) : Prop :=
    match x with POk _ => True | PErr (XErr e) => eofish e | PErr (XPanic _) => True end.
  Definition pef {A} (m : PM A) : Prop := forall s, ateof (rd s) -> ateof (rd (snd (m s))) /\ pokres (fst (m s)).
  Definition tprel (s1 s2 : pstate) : Prop := trel (rd s1) (rd s2) /\ depth s1 = depth s2.
  Definition ptc {A} (m : PM A) (s1 s2 : pstate) : Prop :=
    (exists x, fst (m s2) = PErr x) \/
    (fst (m s1) = fst (m s2) /\ tprel (snd (m s1)) (snd (m s2))) \/
    (ateof (rd (snd (m s1))) /\ pokres (fst (m s1))).
  Definition ptr {A} (m : PM A) : Prop := forall s1 s2, tprel s1 s2 -> ptc m s1 s2.
  Definition pokv {A} (V : A -> Prop) (x : pres A) : Prop :=
    match x with POk a => V a | PErr (XErr e) => eofish e | PErr (XPanic _) => True end.
  Definition pefv {A} (V : A -> Prop) (m : PM A) : Prop :=
    forall s, ateof (rd s) -> ateof (rd (snd (m s))) /\ pokv V (fst (m s)).
  Definition ptcv {A} (V : A -> Prop) (m : PM A) (s1 s2 : pstate) : Prop :=
    (exists x, fst (m s2) = PErr x) \/
    (fst (m s1) = fst (m s2) /\ tprel (snd (m s1)) (snd (m s2))) \/
    (ateof (rd (snd (m s1))) /\ pokv V (fst (m s1))).
  Definition ptv {A} (V : A -> Prop) (m : PM A) : Prop := forall s1 s2, tprel s1 s2 -> ptcv V m s1 s2.

  Lemma pefv_liftR {A} (V : A -> Prop) (m : M A) : efv V m -> pefv V (liftR m).
  Proof.
    intros Hm s H. unfold liftR. destruct (Hm (rd s) H) as [Ha Ho]. destruct (m (rd s)) as [[a|e] r']; cbn [fst snd rd] in *; split; assumption.
  Qed.
  Lemma pefv_bind {A B} (V : A -> Prop) (W : B -> Prop) (m : PM A) (f : A -> PM B) :
    pefv V m -> (forall a, V a -> pefv W (f a)) -> pefv W (pbind m f).
  Proof.
    intros Hm Hf s H. rewrite pbind_unfold. destruct (Hm s H) as [Ha Ho]. destruct (m s) as [[a|x] s1]; cbn [fst snd pokv] in *.
    - apply (Hf a Ho). exact Ha.
    - split; assumption.
  Qed.
  Lemma pefv_attempt {A} (m : PM A) : pef m -> pefv okres (attempt m).
  Proof.
    intros Hm s H. rewrite attempt_unfold. destruct (Hm s H) as [Ha Ho].
    destruct (m s) as [[a|[[c l cl|io|]|k]] s1]; cbn [fst snd] in *; split; auto; exact I.
  Qed.
  Lemma ptv_liftR {A} (V : A -> Prop) (m : M A) : tv V m -> ptv V (liftR m).
  Proof.
    intros Hm s1 s2 [Hr Hd]. destruct (Hm (rd s1) (rd s2) Hr) as [(e & E)|[(E & Hr')|(Ha & Ho)]].
    - left. unfold liftR. destruct (m (rd s2)) as [[a|e'] r2']; cbn [fst] in E; [discriminate|]. eexists; reflexivity.
    - destruct (m (rd s1)) as [[a1|e1] r1'] eqn:E1; destruct (m (rd s2)) as [[a2|e2] r2'] eqn:E2; cbn [fst snd] in E, Hr'; try discriminate.
      + right. left. inversion E; subst a2. unfold liftR. rewrite E1, E2. split; [reflexivity|split; [exact Hr'|exact Hd]].
      + left. unfold liftR. rewrite E2. eexists; reflexivity.
    - right. right. unfold liftR. destruct (m (rd s1)) as [[a1|e1] r1']; cbn [fst snd rd] in *; split; assumption.
  Qed.
  Lemma ptv_bind {A B} (V : A -> Prop) (W : B -> Prop) (m : PM A) (f : A -> PM B) :
    ptv V m -> (forall a, ptv W (f a)) -> (forall a, V a -> pefv W (f a)) -> ptv W (pbind m f).
  Proof.
    intros Hm Hf He s1 s2 H. destruct (Hm s1 s2 H) as [(x & E)|[(E & Hr)|(Ha & Ho)]].
    - left. rewrite pbind_unfold. destruct (m s2) as [[a|x'] s2']; cbn [fst] in E; [discriminate|]. eexists; reflexivity.
    - destruct (m s1) as [[a1|x1] s1'] eqn:E1; destruct (m s2) as [[a2|x2] s2'] eqn:E2; cbn [fst snd] in E, Hr; try discriminate.
      + inversion E; subst a2. unfold ptcv. rewrite !pbind_unfold, E1, E2. apply Hf. exact Hr.
      + left. rewrite pbind_unfold, E2. eexists; reflexivity.
    - right. right. rewrite pbind_unfold. destruct (m s1) as [[a1|x1] s1']; cbn [fst snd pokv] in *.
      + apply (He a1 Ho). exact Ha.
      + split; assumption.
  Qed.

  Lemma pef_pret {A} (a : A) : pef (pret a).
  Proof. intros s H. split; [exact H|exact I]. Qed.
  Lemma pef_panic {A} k : pef (@panic A k).
  Proof. intros s H. split; [exact H|exact I]. Qed.
  Lemma pef_liftR {A} (m : M A) : ef m -> pef (liftR m).
  Proof. exact (pefv_liftR (fun _ => True) m). Qed.
  Lemma pef_err {A} c : eofcode c = true -> pef (liftR (@peek_error A c)).
  Proof. intros Hc. apply pef_liftR. apply ef_peek_error. exact Hc. Qed.
  Lemma pef_bind_v {A B} (V : A -> Prop) (m : PM A) (f : A -> PM B) : pefv V m -> (forall a, V a -> pef (f a)) -> pef (pbind m f).
  Proof. exact (pefv_bind V (fun _ => True) m f). Qed.
  Lemma pef_bind {A B} (m : PM A) (f : A -> PM B) : pef m -> (forall a, pef (f a)) -> pef (pbind m f).
  Proof. intros Hm Hf. apply (pef_bind_v (fun _ => True) m f Hm). intros a _. apply Hf. Qed.
  Lemma pef_attempt {A} (m : PM A) : pef m -> pef (attempt m).
  Proof.
    intros Hm s H. destruct (pefv_attempt m Hm s H) as [Ha Ho]. split; [exact Ha|].
    destruct (fst (attempt m s)) as [r|[e|k]]; [exact I|exact Ho|exact I].
  Qed.

  Lemma ptr_pret {A} (a : A) : ptr (pret a).
  Proof. intros s1 s2 H. right. left. split; [reflexivity|exact H]. Qed.
  Lemma ptr_pfail {A} x : ptr (@pfail A x).
  Proof. intros s1 s2 H. left. eexists; reflexivity. Qed.
  Lemma ptr_liftR {A} (m : M A) : tr m -> ptr (liftR m).
  Proof. exact (ptv_liftR (fun _ => True) m). Qed.
  Lemma ptr_err {A} c : ptr (liftR (@peek_error A c)).
  Proof. apply ptr_liftR. apply tr_peek_error. Qed.
  Lemma ptr_if {A} (b : bool) (m1 m2 : PM A) : ptr m1 -> ptr m2 -> ptr (if b then m1 else m2).
  Proof. intros H1 H2. destruct b; assumption. Qed.
  Lemma ptr_bind_v {A B} (V : A -> Prop) (m : PM A) (f : A -> PM B) :
    ptv V m -> (forall a, ptr (f a)) -> (forall a, V a -> pef (f a)) -> ptr (pbind m f).
  Proof. exact (ptv_bind V (fun _ => True) m f). Qed.

  (* both at once: what follows a step that may return anything when the prefix
     runs out has to be walked for both, and is walked once *)
  Definition pte {A} (m : PM A) : Prop := ptr m /\ pef m.
  Lemma pte_pret {A} (a : A) : pte (pret a).
  Proof. split; [apply ptr_pret|apply pef_pret]. Qed.
  Lemma pte_pfail {A} x : pokres (@PErr A x) -> pte (@pfail A x).
  Proof. intros Hx. split; [apply ptr_pfail|]. intros s H. split; [exact H|exact Hx]. Qed.
  Lemma pte_liftR {A} (m : M A) : tr m -> ef m -> pte (liftR m).
  Proof. intros Ht He. split; [apply ptr_liftR; exact Ht|apply pef_liftR; exact He]. Qed.
  Lemma pte_err {A} c : eofcode c = true -> pte (liftR (@peek_error A c)).
  Proof. intros Hc. split; [apply ptr_err|apply pef_err; exact Hc]. Qed.
  Lemma ptr_then {A B} (m : PM A) (f : A -> PM B) : ptr m -> (forall a, pte (f a)) -> ptr (pbind m f).
  Proof. intros Hm Hf. apply (ptr_bind_v (fun _ => True) m f Hm); intros a; [|intros _]; apply Hf. Qed.
  Lemma pte_bind {A B} (m : PM A) (f : A -> PM B) : pte m -> (forall a, pte (f a)) -> pte (pbind m f).
  Proof. intros [Ht He] Hf. split; [apply ptr_then; assumption|]. apply pef_bind; [exact He|]. intros a. apply Hf. Qed.
  Lemma pte_bind_ws {A} fuel (k : option N -> PM A) :
    (forall o, ptr (k o)) -> pef (k None) -> pte (pbind (liftR (parse_whitespace fuel)) k).
  Proof.
    intros Hk He. split.
    - apply (ptr_bind_v (eq None)); [apply ptv_liftR, tv_parse_whitespace|exact Hk|intros o <-; exact He].
    - apply (pef_bind_v (eq None)); [apply pefv_liftR, efv_parse_whitespace|intros o <-; exact He].
  Qed.

  Lemma pte_get_depth : pte get_depth.
  Proof.
    split; [|intros s H; split; [exact H|exact I]].
    intros s1 s2 [Hr Hd]. right. left. unfold get_depth. cbn [fst snd]. rewrite Hd. split; [reflexivity|split; [exact Hr|exact Hd]].
  Qed.
  Lemma pte_set_depth d : pte (set_depth d).
  Proof.
    split; [|intros s H; split; [exact H|exact I]].
    intros s1 s2 [Hr Hd]. right. left. unfold set_depth. cbn [fst snd]. split; [reflexivity|split; [exact Hr|reflexivity]].
  Qed.
  Lemma pte_dec_depth : pte dec_depth.
  Proof. unfold dec_depth. apply pte_bind; [apply pte_get_depth|]. intros d. destruct (d =? 0); [apply pte_pfail; exact I|apply pte_set_depth]. Qed.
  Lemma pte_inc_depth : pte inc_depth.
  Proof. unfold inc_depth. apply pte_bind; [apply pte_get_depth|]. intros d. destruct (255 <=? d); [apply pte_pfail; exact I|apply pte_set_depth]. Qed.
  Lemma pte_enter_nesting : pte enter_nesting.
  Proof.
    unfold enter_nesting. apply pte_bind; [apply pte_dec_depth|]. intros _. apply pte_bind; [apply pte_get_depth|]. intros d.
    destruct (d =? 0); [|apply pte_pret]. apply pte_bind; [apply pte_inc_depth|]. intros _. apply pte_err. reflexivity.
  Qed.

  Definition pfails {A} (m : PM A) : Prop := forall s, exists x, fst (m s) = PErr x.
  Lemma pfails_now {A B} x (k : A -> PM B) : pfails (pbind (pfail x) k).
  Proof. intros s. eexists; reflexivity. Qed.
  Lemma pfails_later {A B} (m : PM A) (f : A -> PM B) : (forall a, pfails (f a)) -> pfails (pbind m f).
  Proof. intros Hf s. rewrite pbind_unfold. destruct (m s) as [[a|x] s']; [apply Hf|eexists; reflexivity]. Qed.
  Lemma pef_raise {A B} e (k : A -> PM B) : eofish e -> pef (pbind (pfail (XErr e)) k).
  Proof. intros He s H. split; [exact H|exact He]. Qed.

  Lemma pte_nest {A B} (body : PM A) (cont : res A -> PM B) :
    pte body -> (forall a, pte (cont (Ok a))) -> (forall e, pfails (cont (Err e))) -> (forall e, eofish e -> pef (cont (Err e))) ->
    pte (pbind (attempt body) cont).
  Proof.
    intros [Hb Hbe] Hok Hfail Herr. split.
    2:{ apply (pef_bind_v okres); [apply pefv_attempt; exact Hbe|]. intros [a|e] Hr; [apply Hok|apply Herr; exact Hr]. }
    intros s1 s2 H. destruct (Hb s1 s2 H) as [(x & E)|[(E & Hr)|(Ha & Ho)]].
    - left. rewrite pbind_unfold, attempt_unfold.
      destruct (body s2) as [[a|[[c l cl|io|]|kk]] s2']; cbn [fst] in E; try discriminate; cbn [fst snd]; try (eexists; reflexivity); apply Hfail.
    - destruct (body s1) as [[a1|x1] s1'] eqn:E1; destruct (body s2) as [[a2|x2] s2'] eqn:E2; cbn [fst snd] in E, Hr; try discriminate.
      + inversion E; subst a2. unfold ptc. rewrite !pbind_unfold, !attempt_unfold, E1, E2. apply Hok. exact Hr.
      + left. rewrite pbind_unfold, attempt_unfold, E2. destruct x2 as [[c l cl|io|]|kk]; cbn [fst snd]; try (eexists; reflexivity); apply Hfail.
    - right. right. rewrite pbind_unfold, attempt_unfold. destruct (body s1) as [[a1|[[c l cl|io|]|kk]] s1']; cbn [fst snd pokres] in *.
      + apply Hok. exact Ha.
      + apply (Herr (ESyntax c l cl)); assumption.
      + contradiction.
      + split; [exact Ha|exact I].
      + split; [exact Ha|exact I].
  Qed.
  Lemma pte_nest_seq {A B} (body : PM A) (endm : M unit) (k : A -> PM B) :
    pte body -> tr endm -> ef endm -> (forall a, pte (k a)) ->
    pte (pbind (attempt body) (fun r =>
         pbind inc_depth (fun _ =>
         pbind (attempt (liftR endm)) (fun e =>
         pbind (both r e) k)))).
  Proof.
    intros Hb Ht He Hk. apply pte_nest; [exact Hb| | |].
    - intros a. apply pte_bind; [apply pte_inc_depth|]. intros _. apply pte_nest; [apply pte_liftR; assumption| | |].
      + intros u. apply pte_bind; [apply pte_pret|exact Hk].
      + intros e. apply pfails_now.
      + intros e. apply pef_raise.
    - intros e. apply pfails_later. intros _. apply pfails_later. intros r. apply pfails_now.
    - intros e Hee. apply pef_bind; [apply pte_inc_depth|]. intros _.
      apply pef_bind; [apply pef_attempt, pef_liftR, He|]. intros r. apply pef_raise. exact Hee.
  Qed.
  Lemma pte_nest_quote {A B} (body : PM A) (k : A -> PM B) :
    pte body -> (forall a, pte (k a)) ->
    pte (pbind (attempt body) (fun r => pbind inc_depth (fun _ => pbind (lift r) k))).
  Proof.
    intros Hb Hk. apply pte_nest; [exact Hb| | |].
    - intros a. apply pte_bind; [apply pte_inc_depth|]. intros _. apply pte_bind; [apply pte_pret|exact Hk].
    - intros e. apply pfails_later. intros _. apply pfails_now.
    - intros e Hee. apply pef_bind; [apply pte_inc_depth|]. intros _. apply pef_raise. exact Hee.
  Qed.

  Lemma tv_eat_peek : tv (eq None) (eat_char ;;; peek).
  Proof. apply (tv_bind (fun _ => False) _ _ _ (tv_eat _)); [intros _; exact tv_peek|intros _ []]. Qed.
  Lemma ptr_position_then {A} (k : N * N -> PM A) : (forall p, ptr (k p)) -> ptr (pbind (liftR position) k).
  Proof. intros Hk. apply (ptr_bind_v (fun _ => False)); [apply ptv_liftR, tv_position|exact Hk|intros _ []]. Qed.
  Lemma pte_position_then {A} (k : N * N -> PM A) : (forall p, pte (k p)) -> pte (pbind (liftR position) k).
  Proof. intros Hk. apply pte_bind; [apply pte_liftR; [apply tr_position|apply ef_position]|exact Hk]. Qed.

  (* what follows a lone dot in a list, the same code in both parsers *)
  Lemma pte_dotted_tail {A B C} (nv : PM (option A)) fuel t (acc : list C) (done : A -> B) :
    pte nv ->
    pte (match acc with
         | [] =>
             pbind (liftR peek) (fun o3 =>
             match o3 with
             | Some _ => liftR (peek_error ExpectedSomeValue)
             | None => liftR (peek_error EofWhileParsingList)
             end)
         | _ :: _ =>
             pbind nv (fun ov =>
             match ov with
             | None => liftR (peek_error EofWhileParsingValue)
             | Some cdr =>
                 pbind (liftR (parse_whitespace fuel)) (fun o2 =>
                 match o2 with
                 | Some c2 => if c2 =? t then pret (done cdr) else liftR (peek_error TrailingCharacters)
                 | None => liftR (peek_error EofWhileParsingList)
                 end)
             end)
         end).
  Proof.
    intros Hnv. destruct acc as [|a0 acc'].
    - split.
      + apply (ptr_bind_v (eq None)); [apply ptv_liftR, tv_peek| |intros o <-; apply pef_err; reflexivity]. intros [x|]; apply ptr_err.
      + apply (pef_bind_v (eq None)); [apply pefv_liftR, efv_peek|]. intros o <-. apply pef_err; reflexivity.
    - apply pte_bind; [exact Hnv|]. intros [cdr|]; [|apply pte_err; reflexivity].
      apply pte_bind_ws; [|apply pef_err; reflexivity].
      intros [c2|]; [apply ptr_if; [apply ptr_pret|apply ptr_err]|apply ptr_err].
  Qed.

  Section ParserTr.
    Variable ro : parse_options.
    Variable alpha : N -> bool.
    Variable fast : bool.
    Variable std_parse : N -> Z -> f64.
    Local Notation next_value := (next_value ro alpha fast std_parse).
    Local Notation parse_list := (parse_list ro alpha fast std_parse).
    Local Notation parse_vector := (parse_vector ro alpha fast std_parse).
    Local Notation next_datum := (next_datum ro alpha fast std_parse).
    Local Notation parse_list_meta := (parse_list_meta ro alpha fast std_parse).
    Local Notation parse_vector_meta := (parse_vector_meta ro alpha fast std_parse).

    Lemma te_values fuel :
      pte (next_value fuel) /\ (forall t acc, pte (parse_list fuel t acc)) /\ (forall t acc, pte (parse_vector fuel t acc)).
    Proof.
      induction fuel as [|f (IHv & IHl & IHvec)]; [split; [|split]; intros; apply pte_pfail; exact I|].
      split; [|split]; intros; cbn [Parser.next_value Parser.parse_list Parser.parse_vector];
        fold next_value parse_list parse_vector; apply pte_bind_ws.
      - intros [b|]; [|apply ptr_pret]. apply ptr_then; [apply ptr_liftR, tr_parse_token|].
        intros tok. destruct tok; try apply pte_pret; try (apply pte_bind; [apply pte_enter_nesting|intros _]).
        + apply pte_nest_seq; [apply IHl|apply tr_end_seq|apply ef_end_seq|intros; apply pte_pret].
        + apply pte_nest_quote; [exact IHv|]. intros [d|]; [apply pte_pret|apply pte_err; reflexivity].
        + apply pte_nest_seq; [apply IHvec|apply tr_end_seq|apply ef_end_seq|intros; apply pte_pret].
        + apply pte_bind; [apply pte_liftR; [apply tr_parse_byte_list|apply ef_parse_byte_list]|intros; apply pte_pret].
      - apply pef_pret.
      - intros [c|]; [|apply ptr_err].
        apply ptr_if. { apply ptr_if; [apply ptr_err|apply ptr_pret]. }
        apply ptr_if.
        + apply (ptr_bind_v (eq None)); [apply ptv_liftR, tv_eat_peek| |].
          * intros nx. apply ptr_if; [apply pte_dotted_tail; exact IHv|].
            apply ptr_then; [apply ptr_liftR, tr_parse_symbol_suffix|intros name; apply IHl].
          * intros nx <-. cbn [lone_dot]. apply pte_dotted_tail. exact IHv.
        + apply ptr_then; [apply IHv|]. intros [v|]; [apply IHl|apply pte_err; reflexivity].
      - apply pef_err; reflexivity.
      - intros [c|]; [|apply ptr_err].
        apply ptr_if. { apply ptr_if; [apply ptr_err|apply ptr_pret]. }
        apply ptr_then; [apply IHv|]. intros [v|]; [apply IHvec|apply pte_err; reflexivity].
      - apply pef_err; reflexivity.
    Qed.
    Theorem trunc_values fuel :
      ptr (next_value fuel) /\ (forall t acc, ptr (parse_list fuel t acc)) /\ (forall t acc, ptr (parse_vector fuel t acc)).
    Proof. destruct (te_values fuel) as (Hv & Hl & Hvec). split; [apply Hv|split; intros; [apply Hl|apply Hvec]]. Qed.

    Lemma te_datums fuel :
      pte (next_datum fuel) /\ (forall t acc, pte (parse_list_meta fuel t acc)) /\ (forall t acc, pte (parse_vector_meta fuel t acc)).
    Proof.
      induction fuel as [|f (IHv & IHl & IHvec)]; [split; [|split]; intros; apply pte_pfail; exact I|].
      split; [|split]; intros; cbn [Parser.next_datum Parser.parse_list_meta Parser.parse_vector_meta];
        fold next_datum parse_list_meta parse_vector_meta; apply pte_bind_ws.
      - intros [b|]; [|apply ptr_pret]. apply ptr_position_then. intros start.
        apply ptr_then; [apply ptr_liftR, tr_parse_token|].
        intros tok. cbv zeta. destruct tok; try (apply pte_position_then; intros; apply pte_pret).
        + apply pte_bind; [apply pte_enter_nesting|intros _].
          apply pte_nest_seq; [apply IHl|apply tr_end_seq|apply ef_end_seq|]. intros l. apply pte_position_then; intros; apply pte_pret.
        + apply pte_position_then. intros token_end. apply pte_bind; [apply pte_enter_nesting|intros _].
          apply pte_nest_quote; [exact IHv|]. intros [d|]; [apply pte_pret|apply pte_err; reflexivity].
        + apply pte_bind; [apply pte_enter_nesting|intros _].
          apply pte_nest_seq; [apply IHvec|apply tr_end_seq|apply ef_end_seq|]. intros l. apply pte_position_then; intros; apply pte_pret.
        + apply pte_bind; [apply pte_liftR; [apply tr_parse_byte_list|apply ef_parse_byte_list]|]. intros. apply pte_position_then; intros; apply pte_pret.
      - apply pef_pret.
      - intros [c|]; [|apply ptr_err].
        apply ptr_if. { apply ptr_if; [apply ptr_err|apply ptr_pret]. }
        apply ptr_if.
        + apply ptr_position_then. intros start. apply (ptr_bind_v (eq None)); [apply ptv_liftR, tv_eat_peek| |].
          * intros nx. apply ptr_if; [apply pte_dotted_tail; exact IHv|].
            apply ptr_then; [apply ptr_liftR, tr_parse_symbol_suffix|]. intros name. apply pte_position_then. intros e. apply IHl.
          * intros nx <-. cbn [lone_dot]. apply pte_dotted_tail. exact IHv.
        + apply ptr_then; [apply IHv|]. intros [v|]; [apply IHl|apply pte_err; reflexivity].
      - apply pef_err; reflexivity.
      - intros [c|]; [|apply ptr_err].
        apply ptr_if. { apply ptr_if; [apply ptr_err|apply ptr_pret]. }
        apply ptr_then; [apply IHv|]. intros [v|]; [apply IHvec|apply pte_err; reflexivity].
      - apply pef_err; reflexivity.
    Qed.
    Theorem trunc_datums fuel :
      ptr (next_datum fuel) /\ (forall t acc, ptr (parse_list_meta fuel t acc)) /\ (forall t acc, ptr (parse_vector_meta fuel t acc)).
    Proof. destruct (te_datums fuel) as (Hv & Hl & Hvec). split; [apply Hv|split; intros; [apply Hl|apply Hvec]]. Qed.

    Lemma init_tprel (pre : list event) : tprel (init_state SrcIo pre) (init_state SrcIo (pre ++ rest)).
    Proof. unfold tprel, init_state, mk_reader. cbn [rd depth]. split; [|reflexivity]. apply (mk_trel 1 0 false pre). discriminate. Qed.

    Theorem trunc_from_trait fuel (pre : list event) :
      ptc (pbind (expect_value ro alpha fast std_parse fuel) (fun v => pbind (expect_end_p fuel) (fun _ => pret v)))
          (init_state SrcIo pre) (init_state SrcIo (pre ++ rest)) /\
      ptc (pbind (expect_datum ro alpha fast std_parse fuel) (fun v => pbind (expect_end_p fuel) (fun _ => pret v)))
          (init_state SrcIo pre) (init_state SrcIo (pre ++ rest)).
    Proof.
      assert (Hend : forall A (v : A), pte (pbind (expect_end_p fuel) (fun _ => pret v))).
      { intros A v. apply pte_bind; [apply pte_liftR; [apply tr_expect_end|apply ef_expect_end]|intros; apply pte_pret]. }
      split; (apply ptr_then; [|intros v; apply Hend|apply init_tprel]); apply ptr_then.
      - apply te_values.
      - intros [v|]; [apply pte_pret|apply pte_err; reflexivity].
      - apply te_datums.
      - intros [v|]; [apply pte_pret|apply pte_err; reflexivity].
    Qed.
  End ParserTr.
End Trunc.
