(* C03: nothing nested more deeply than the budget is ever accepted: a value
   returned by next_value from a parser whose remaining nesting budget is D
   needs fewer than D levels to be read (vdepth: lists, vectors and quotations;
   a dotted tail that is a list counts as written flat, the empty list costs
   nothing), for every option set, input and source kind, so with the initial
   128 no accepted value nests more than 127 levels. First come the two judgements the postcondition proofs share:
   successful results under an invariant of the reader, without (pinv) and
   with (Jg) the nesting budget. *)
From Coq Require Import SpecFloat ZifyBool ZifyNat ZifyN.
Require Import Base Value Float PrintOptions ParseOptions Utf8 Reader Scan Num NumberOps Parser Depth.
Require Import RelFramework DepthProofs.

(* nesting of a value as the parser sees it: the empty list costs nothing *)
Fixpoint vdepth (v : value) : nat :=
  match v with
  | Cons a d => S (Nat.max (vdepth a) (vdepth_rest d))
  | Vector l => S (list_max (map vdepth l))
  | _ => 0
  end
with vdepth_rest (d : value) : nat :=
  match d with
  | Cons a d' => Nat.max (vdepth a) (vdepth_rest d')
  | Vector l => S (list_max (map vdepth l))
  | _ => 0
  end.

Lemma Forall_snoc {A} (P : A -> Prop) l x : Forall P l -> P x -> Forall P (l ++ [x]).
Proof. intros Hl Hx. apply Forall_app. split; [exact Hl|repeat constructor; exact Hx]. Qed.

Definition fails {A} (m : PM A) : Prop := forall s, exists e, fst (m s) = PErr e.

Lemma fails_bind {A B} (m : PM A) (f : A -> PM B) : (forall a, fails (f a)) -> fails (pbind m f).
Proof. intros H s. rewrite pbind_unfold. destruct (m s) as [[a|e] s1]; [apply H|eexists; reflexivity]. Qed.
Lemma fails_lift {A B} e (kk : A -> PM B) : fails (pbind (lift (Err e)) kk).
Proof. intros s. eexists; reflexivity. Qed.
Lemma fails_both_l {A B} e0 (e : res unit) (kk : A -> PM B) : fails (pbind (both (Err e0) e) kk).
Proof. intros s. destruct e; eexists; reflexivity. Qed.
Lemma fails_both_r {A B} (a : A) e0 (kk : A -> PM B) : fails (pbind (both (Ok a) (Err e0)) kk).
Proof. intros s. eexists; reflexivity. Qed.

(* Every judgement on parser computations here constrains successful runs only.
   When K fails on an error, a successful run of [attempt body; K] is a
   successful run of body followed by K. *)
Lemma attempt_run {A B} (body : PM A) (K : res A -> PM B) (Q : B -> pstate -> Prop) s :
  (forall e, fails (K (Err e))) ->
  (forall a s1, body s = (POk a, s1) -> match K (Ok a) s1 with (POk b, s') => Q b s' | (PErr _, _) => True end) ->
  match pbind (attempt body) K s with (POk b, s') => Q b s' | (PErr _, _) => True end.
Proof.
  intros Herr Hok. rewrite pbind_unfold, attempt_unfold.
  destruct (body s) as [[a|[e|pk]] s1]; [exact (Hok a s1 eq_refl)| |exact I].
  pose proof (Herr e s1) as [e2 E2]. destruct e; try exact I; destruct (K _ s1) as [[b|e3] s4]; (discriminate || exact I).
Qed.

Lemma fails_end_both {A B} e0 (endm : M unit) (kk : A -> PM B) :
  fails (pbind inc_depth (fun _ => pbind (attempt (liftR endm)) (fun e => pbind (both (Err e0) e) kk))).
Proof. apply fails_bind. intros _. apply fails_bind. intros e. apply fails_both_l. Qed.
Lemma fails_inc_lift {A B} e0 (kk : A -> PM B) : fails (pbind inc_depth (fun _ => pbind (lift (Err e0)) kk)).
Proof. apply fails_bind. intros _. apply fails_lift. Qed.

Definition pinv {A} (Inv pre : reader -> Prop) (m : PM A) (q : A -> Prop) : Prop :=
  forall s, Inv (rd s) -> pre (rd s) -> match m s with (POk a, s') => Inv (rd s') /\ q a | (PErr _, _) => True end.
Definition nopre (_ : reader) : Prop := True.

Definition Rsame (r : reader) (x : option perr) (r' : reader) : Prop := r' = r.
Lemma same_inc : psat Rsame inc_depth.
Proof. apply (psat_inc_depth Rsame); unfold Rsame; congruence. Qed.
Lemma same_enter : psat Rsame enter_nesting.
Proof.
  apply (psat_enter_nesting Rsame); unfold Rsame; try congruence.
  intros A c r. unfold peek_error, R, Rsame. destruct (r_peek_position r). reflexivity.
Qed.

Section Pinv.
  Variable Inv : reader -> Prop.

  Lemma pinv_bind {A B} pre (m : PM A) (f : A -> PM B) (p : A -> Prop) (q : B -> Prop) :
    pinv Inv pre m p -> (forall a, p a -> pinv Inv nopre (f a) q) -> pinv Inv pre (pbind m f) q.
  Proof.
    intros Hm Hf s Hi Hp. rewrite pbind_unfold. specialize (Hm s Hi Hp).
    destruct (m s) as [[a|e] s1]; [|exact I]. destruct Hm as [Hi1 Hpa]. exact (Hf a Hpa s1 Hi1 I).
  Qed.
  Lemma pinv_skip {A B} pre (m : PM A) (f : A -> PM B) (q : B -> Prop) :
    pinv Inv pre m (fun _ => True) -> (forall a, pinv Inv nopre (f a) q) -> pinv Inv pre (pbind m f) q.
  Proof. intros Hm Hf. apply (pinv_bind pre m f (fun _ => True) q Hm). intros a _. apply Hf. Qed.
  Lemma pinv_ret {A} pre (a : A) (q : A -> Prop) : q a -> pinv Inv pre (pret a) q.
  Proof. intros H s Hi _. split; [exact Hi|exact H]. Qed.
  Lemma pinv_fail {A} pre e (q : A -> Prop) : pinv Inv pre (pfail e) q.
  Proof. intros s _ _. exact I. Qed.
  Lemma pinv_err {A} pre c (q : A -> Prop) : pinv Inv pre (liftR (peek_error (A := A) c)) q.
  Proof. intros s _ _. unfold liftR, peek_error. destruct (r_peek_position (rd s)). exact I. Qed.
  Lemma pinv_weaken {A} (pre pre' : reader -> Prop) (m : PM A) (q : A -> Prop) :
    (forall r, pre' r -> pre r) -> pinv Inv pre m q -> pinv Inv pre' m q.
  Proof. intros H1 H s Hi Hp. exact (H s Hi (H1 _ Hp)). Qed.
  Lemma pinv_same {A} pre (m : PM A) : psat Rsame m -> pinv Inv pre m (fun _ => True).
  Proof.
    intros H s Hi _. specialize (H s). unfold Rsame in H. destruct (m s) as [[a|e] s1]; cbn [fst snd] in *; [|exact I].
    rewrite H. split; [exact Hi|exact I].
  Qed.
  Lemma pinv_attempt {A B} pre (body : PM A) (K : res A -> PM B) p q :
    pinv Inv pre body p -> (forall a, p a -> pinv Inv nopre (K (Ok a)) q) -> (forall e, fails (K (Err e))) ->
    pinv Inv pre (pbind (attempt body) K) q.
  Proof.
    intros Hb Hok Herr s Hi Hp. apply attempt_run; [exact Herr|]. intros a s1 E.
    specialize (Hb s Hi Hp). rewrite E in Hb. destruct Hb as [Hi1 Hpa]. exact (Hok a Hpa s1 Hi1 I).
  Qed.

  Lemma pinv_nest_seq {A B} pre (body : PM A) (endm : M unit) (kk : A -> PM B) (p : A -> Prop) (q : B -> Prop) :
    pinv Inv pre body p -> pinv Inv nopre (liftR endm) (fun _ => True) -> (forall a, p a -> pinv Inv nopre (kk a) q) ->
    pinv Inv pre (pbind (attempt body) (fun r => pbind inc_depth (fun _ =>
            pbind (attempt (liftR endm)) (fun e => pbind (both r e) kk)))) q.
  Proof.
    intros Hb He Hkk. apply (pinv_attempt pre body _ p q Hb); [|intros e; apply fails_end_both].
    intros a Hp. apply pinv_skip; [apply pinv_same, same_inc|]. intros _.
    apply (pinv_attempt _ _ _ (fun _ => True) q He); [|intros e; apply fails_both_r].
    intros u _. exact (Hkk a Hp).
  Qed.
  Lemma pinv_nest_quote {A B} pre (body : PM A) (kk : A -> PM B) (p : A -> Prop) (q : B -> Prop) :
    pinv Inv pre body p -> (forall a, p a -> pinv Inv nopre (kk a) q) ->
    pinv Inv pre (pbind (attempt body) (fun r => pbind inc_depth (fun _ => pbind (lift r) kk))) q.
  Proof.
    intros Hb Hkk. apply (pinv_attempt pre body _ p q Hb); [|intros e; apply fails_inc_lift].
    intros a Hp. apply pinv_skip; [apply pinv_same, same_inc|]. intros _. exact (Hkk a Hp).
  Qed.
End Pinv.

Lemma pinv_any {A} (m : PM A) : pinv nopre nopre m (fun _ => True).
Proof. intros s _ _. destruct (m s) as [[a|e] s1]; repeat split. Qed.

Lemma enter_at s D : depth s = D -> 1 <= D <= 128 ->
  (D = 1 /\ exists e, fst (enter_nesting s) = PErr e) \/
  (1 < D /\ enter_nesting s = (POk tt, {| rd := rd s; depth := D - 1 |})).
Proof.
  intros Hd HD. destruct (enter_nesting_spec s ltac:(unfold depth_ok; lia)) as [[H1 (l & cl & E)]|[H1 E]].
  - left. split; [lia|]. rewrite E. eexists; reflexivity.
  - right. split; [lia|]. rewrite E, Hd. reflexivity.
Qed.

Definition Jg {A} (Inv : reader -> Prop) (D : N) (m : PM A) (post : A -> Prop) : Prop :=
  forall s, Inv (rd s) -> depth s = D -> 1 <= D <= 128 ->
    match m s with (POk a, s') => post a /\ depth s' = D /\ Inv (rd s') | (PErr _, _) => True end.

Section Budget.
  Variable Inv : reader -> Prop.

  Lemma Jg_bind {A B} D (m : PM A) (f : A -> PM B) p q : Jg Inv D m p -> (forall a, p a -> Jg Inv D (f a) q) -> Jg Inv D (pbind m f) q.
  Proof.
    intros Hm Hf s Hi Hd HD. rewrite pbind_unfold. specialize (Hm s Hi Hd HD).
    destruct (m s) as [[a|e] s1]; [|exact I]. destruct Hm as (Hp & Hd1 & Hi1). apply (Hf a Hp s1 Hi1 Hd1 HD).
  Qed.
  Lemma Jg_ret {A} D (a : A) (q : A -> Prop) : q a -> Jg Inv D (pret a) q.
  Proof. intros H s Hi Hd _. cbn. auto. Qed.
  Lemma Jg_assume {A} D (m : PM A) (q : A -> Prop) : (1 <= D <= 128 -> Jg Inv D m q) -> Jg Inv D m q.
  Proof. intros H s Hi Hd HD. exact (H HD s Hi Hd HD). Qed.
  Lemma Jg_fail {A} D e (q : A -> Prop) : Jg Inv D (pfail e) q.
  Proof. intros s _ _ _. exact I. Qed.
  Lemma Jg_liftR {A} D (m : M A) (q : A -> Prop) : pinv Inv nopre (liftR m) q -> Jg Inv D (liftR m) q.
  Proof.
    intros H s Hi Hd _. specialize (H s Hi I). unfold liftR in *. destruct (m (rd s)) as [[a|e] r']; [|exact I].
    cbn [depth rd] in *. destruct H. auto.
  Qed.
  Lemma Jg_err {A} D c (q : A -> Prop) : Jg Inv D (liftR (peek_error (A := A) c)) q.
  Proof. apply Jg_liftR, pinv_err. Qed.
  Lemma Jg_attempt {A B} D (body : PM A) (K : res A -> PM B) p q :
    Jg Inv D body p -> (forall a, p a -> Jg Inv D (K (Ok a)) q) -> (forall e, fails (K (Err e))) -> Jg Inv D (pbind (attempt body) K) q.
  Proof.
    intros Hb Hok Herr s Hi Hd HD. apply attempt_run; [exact Herr|]. intros a s1 E.
    specialize (Hb s Hi Hd HD). rewrite E in Hb. destruct Hb as (Hp & Hd1 & Hi1). exact (Hok a Hp s1 Hi1 Hd1 HD).
  Qed.

  (* After a failed body the budget is not known, so K must fail on an error
     whatever the state. *)
  Lemma Jg_nest_gen {A B} D (body : PM A) (K : res A -> PM B) p q :
    Jg Inv (D - 1) body p -> (forall a, p a -> 1 < D -> Jg Inv D (K (Ok a)) q) -> (forall e, fails (K (Err e))) ->
    Jg Inv D (pbind enter_nesting (fun _ => pbind (attempt body) (fun r => pbind inc_depth (fun _ => K r)))) q.
  Proof.
    intros Hbody Hok Herr s Hi Hd HD. rewrite pbind_unfold.
    destruct (enter_at s D Hd HD) as [[_ (e & E)]|[HD1 E]].
    - destruct (enter_nesting s) as [[u|e'] s1]; cbn [fst] in E; [discriminate|exact I].
    - rewrite E. apply attempt_run; [intros e; apply fails_bind; intros _; apply Herr|]. intros a s2 E2.
      specialize (Hbody {| rd := rd s; depth := D - 1 |} Hi eq_refl ltac:(lia)). rewrite E2 in Hbody. destruct Hbody as (Hp & Hd2 & Hi2).
      rewrite pbind_unfold, (inc_depth_spec s2 ltac:(lia)). apply (Hok a Hp HD1); cbn [rd depth]; [exact Hi2|lia|exact HD].
  Qed.

  Lemma Jg_nest {A B} D (body : PM A) (endm : M unit) (kk : A -> PM B) p q :
    Jg Inv (D - 1) body p -> pinv Inv nopre (liftR endm) (fun _ => True) -> (forall a, p a -> 1 < D -> Jg Inv D (kk a) q) ->
    Jg Inv D (pbind enter_nesting (fun _ => pbind (attempt body) (fun r => pbind inc_depth (fun _ =>
           pbind (attempt (liftR endm)) (fun e => pbind (both r e) kk))))) q.
  Proof.
    intros Hbody Hend Hkk.
    apply (Jg_nest_gen D body (fun r => pbind (attempt (liftR endm)) (fun e => pbind (both r e) kk)) p q Hbody).
    - intros a Hp HD1. apply (Jg_attempt D _ _ (fun _ => True) q (Jg_liftR D endm _ Hend)); [|intros e; apply fails_both_r].
      intros u _. exact (Hkk a Hp HD1).
    - intros e. apply fails_bind. intros e'. apply fails_both_l.
  Qed.

  Lemma Jg_nest_quote {A B} D (body : PM A) (kk : A -> PM B) p q :
    Jg Inv (D - 1) body p -> (forall a, p a -> 1 < D -> Jg Inv D (kk a) q) ->
    Jg Inv D (pbind enter_nesting (fun _ => pbind (attempt body) (fun r => pbind inc_depth (fun _ => pbind (lift r) kk)))) q.
  Proof.
    intros Hbody Hkk. apply (Jg_nest_gen D body (fun r => pbind (lift r) kk) p q Hbody).
    - intros a Hp HD1. exact (Hkk a Hp HD1).
    - intros e. apply fails_lift.
  Qed.
End Budget.

Definition dv (D : N) (v : value) : Prop := N.of_nat (vdepth v) < D.
Definition opt_dv (D : N) (o : option value) : Prop := match o with Some v => dv D v | None => True end.
Definition list_dv (D : N) (l : value) : Prop := N.of_nat (vdepth_rest l) < D.

Lemma vdepth_rest_le d : (vdepth_rest d <= vdepth d)%nat.
Proof. destruct d; cbn [vdepth vdepth_rest]; lia. Qed.
Lemma vdepth_le_rest d : (vdepth d <= S (vdepth_rest d))%nat.
Proof. destruct d; cbn [vdepth vdepth_rest]; lia. Qed.
Lemma build_dv D acc tail : Forall (dv D) acc -> N.of_nat (vdepth_rest tail) < D -> N.of_nat (vdepth_rest (build acc tail)) < D.
Proof. induction 1 as [|x acc Hx Hacc IH]; intros Hd; cbn [build]; [auto|]. specialize (IH Hd). unfold dv in Hx. cbn [vdepth_rest]. lia. Qed.
Lemma list_max_below {A} (f : A -> nat) (D : N) l : 0 < D -> Forall (fun x => N.of_nat (f x) < D) l -> N.of_nat (list_max (map f l)) < D.
Proof. intros HD. induction 1 as [|x l Hx _ IH]; cbn [map list_max]; lia. Qed.
Lemma vector_dv D els : 1 < D -> Forall (dv (D - 1)) els -> dv D (Vector els).
Proof. intros HD H. unfold dv. cbn [vdepth]. pose proof (list_max_below vdepth (D - 1) els ltac:(lia) H). lia. Qed.

Section DepthBound.
  Variable ro : parse_options.
  Variable alpha : N -> bool.
  Variable fast : bool.
  Variable std_parse : N -> Z -> f64.
  Local Notation next_value := (next_value ro alpha fast std_parse).
  Local Notation parse_list := (parse_list ro alpha fast std_parse).
  Local Notation parse_vector := (parse_vector ro alpha fast std_parse).

  Definition Jn {A} (D : N) (m : PM A) (post : A -> Prop) : Prop :=
    forall s, depth s = D -> 1 <= D <= 128 ->
      match m s with (POk a, s') => post a /\ depth s' = D | (PErr _, _) => True end.
  Lemma Jn_of_Jg {A} D (m : PM A) post : Jg nopre D m post -> Jn D m post.
  Proof. intros H s Hd HD. specialize (H s I Hd HD). destruct (m s) as [[a|e] s1]; [|exact I]. split; apply H. Qed.

  Lemma symbol_value_depth name : vdepth (symbol_value ro name) = 0%nat.
  Proof. unfold symbol_value. destruct (symbol_token ro name); reflexivity. Qed.

  Lemma values_depth_g fuel :
    (forall D, Jg nopre D (next_value fuel) (opt_dv D)) /\
    (forall D t acc, Forall (dv D) acc -> Jg nopre D (parse_list fuel t acc) (list_dv D)) /\
    (forall D t acc, Forall (dv D) acc -> Jg nopre D (parse_vector fuel t acc) (Forall (dv D))).
  Proof.
    induction fuel as [|f (IHv & IHl & IHvec)].
    - split; [|split]; intros; cbn [Parser.next_value Parser.parse_list Parser.parse_vector]; apply Jg_fail.
    - split; [|split]; intros; cbn [Parser.next_value Parser.parse_list Parser.parse_vector]; fold next_value parse_list parse_vector.
      + apply Jg_assume; intros HD0.
        apply (Jg_bind _ D _ _ (fun _ => True)); [apply Jg_liftR, pinv_any|]. intros o _. destruct o as [b|]; [|apply Jg_ret; exact I].
        apply (Jg_bind _ D _ _ (fun _ => True)); [apply Jg_liftR, pinv_any|]. intros tok _.
        destruct tok; try (apply Jg_ret; unfold opt_dv, dv; cbn [vdepth]; lia).
        * (* list *)
          apply (Jg_nest _ D _ _ _ (list_dv (D - 1)) (opt_dv D)); [apply IHl; constructor|apply pinv_any|].
          intros l Hl HD. apply Jg_ret. unfold opt_dv, dv, list_dv in *. pose proof (vdepth_le_rest l). lia.
        * (* quotation *)
          apply (Jg_nest_quote _ D _ _ (opt_dv (D - 1)) (opt_dv D)); [apply IHv|].
          intros o Ho HD. destruct o as [d|]; [|apply Jg_err]. apply Jg_ret. unfold opt_dv, dv in *.
          cbn [vlist build vdepth vdepth_rest]. lia.
        * (* vector *)
          apply (Jg_nest _ D _ _ _ (Forall (dv (D - 1))) (opt_dv D)); [apply IHvec; constructor|apply pinv_any|].
          intros els Hels HD. apply Jg_ret. apply vector_dv; assumption.
        * (* byte vector *)
          apply (Jg_bind _ D _ _ (fun _ => True)); [apply Jg_liftR, pinv_any|]. intros bs _. apply Jg_ret. unfold opt_dv, dv. cbn [vdepth]. lia.
      + apply Jg_assume; intros HD0.
        apply (Jg_bind _ D _ _ (fun _ => True)); [apply Jg_liftR, pinv_any|]. intros o _. destruct o as [c|]; [|apply Jg_err].
        destruct (is_closer c).
        { destruct (negb (c =? t)); [apply Jg_err|]. apply Jg_ret. apply (build_dv D acc Null H). cbn [vdepth_rest]. lia. }
        destruct (c =? 46).
        { apply (Jg_bind _ D _ _ (fun _ => True)); [apply Jg_liftR, pinv_any|]. intros nx _. destruct (lone_dot nx).
          - destruct acc as [|x acc'].
            + apply (Jg_bind _ D _ _ (fun _ => True)); [apply Jg_liftR, pinv_any|]. intros o3 _. destruct o3; apply Jg_err.
            + apply (Jg_bind _ D _ _ (opt_dv D)); [apply IHv|]. intros ov Hov. destruct ov as [cdr|]; [|apply Jg_err].
              apply (Jg_bind _ D _ _ (fun _ => True)); [apply Jg_liftR, pinv_any|]. intros o2 _.
              destruct o2 as [c2|]; [|apply Jg_err]. destruct (c2 =? t); [|apply Jg_err].
              apply Jg_ret. apply (build_dv D (x :: acc') cdr H). unfold opt_dv, dv in Hov. pose proof (vdepth_rest_le cdr). lia.
          - apply (Jg_bind _ D _ _ (fun _ => True)); [apply Jg_liftR, pinv_any|]. intros name _.
            apply IHl. apply Forall_snoc; [exact H|]. unfold dv. pose proof (symbol_value_depth name). lia. }
        apply (Jg_bind _ D _ _ (opt_dv D)); [apply IHv|]. intros ov Hov.
        destruct ov as [v|]; [|apply Jg_err]. apply IHl. apply Forall_snoc; assumption.
      + apply (Jg_bind _ D _ _ (fun _ => True)); [apply Jg_liftR, pinv_any|]. intros o _. destruct o as [c|]; [|apply Jg_err].
        destruct (is_closer c). { destruct (negb (c =? t)); [apply Jg_err|]. apply Jg_ret. assumption. }
        apply (Jg_bind _ D _ _ (opt_dv D)); [apply IHv|]. intros ov Hov.
        destruct ov as [v|]; [|apply Jg_err]. apply IHvec. apply Forall_snoc; assumption.
  Qed.

  Theorem values_depth fuel :
    (forall D, Jn D (next_value fuel) (opt_dv D)) /\
    (forall D t acc, Forall (dv D) acc -> Jn D (parse_list fuel t acc) (list_dv D)) /\
    (forall D t acc, Forall (dv D) acc -> Jn D (parse_vector fuel t acc) (Forall (dv D))).
  Proof. destruct (values_depth_g fuel) as (Hv & Hl & Hvec). repeat split; intros; apply Jn_of_Jg; auto. Qed.

  Lemma from_trait_next k inp v : from_trait ro alpha fast std_parse k inp = POk v ->
    exists s1, next_value (fuel_for inp) (init_state k inp) = (POk (Some v), s1).
  Proof.
    intros E. unfold from_trait, expect_value in E. rewrite !pbind_unfold in E.
    destruct (next_value (fuel_for inp) (init_state k inp)) as [[[v0|]|e] s1]; [|exfalso|discriminate].
    - cbn [pret] in E. rewrite pbind_unfold in E.
      destruct (expect_end_p (fuel_for inp) s1) as [[u|e] s2]; cbn [fst pret] in E; [|discriminate]. inversion E. eexists; reflexivity.
    - unfold liftR, peek_error in E. destruct (r_peek_position (rd s1)). discriminate.
  Qed.
  Lemma datum_from_trait_next k inp d : datum_from_trait ro alpha fast std_parse k inp = POk d ->
    exists s1, next_datum ro alpha fast std_parse (fuel_for inp) (init_state k inp) = (POk (Some d), s1).
  Proof.
    intros E. unfold datum_from_trait, expect_datum in E. rewrite !pbind_unfold in E.
    destruct (next_datum ro alpha fast std_parse (fuel_for inp) (init_state k inp)) as [[[d0|]|e] s1]; [|exfalso|discriminate].
    - cbn [pret] in E. rewrite pbind_unfold in E.
      destruct (expect_end_p (fuel_for inp) s1) as [[u|e] s2]; cbn [fst pret] in E; [|discriminate]. inversion E. eexists; reflexivity.
    - unfold liftR, peek_error in E. destruct (r_peek_position (rd s1)). discriminate.
  Qed.

  Theorem from_trait_depth k inp v : from_trait ro alpha fast std_parse k inp = POk v -> (vdepth v <= 127)%nat.
  Proof.
    intros E. destruct (from_trait_next k inp v E) as [s1 E1].
    pose proof (proj1 (values_depth (fuel_for inp)) 128 (init_state k inp) eq_refl ltac:(lia)) as H.
    rewrite E1 in H. destruct H as [Hq _]. unfold opt_dv, dv in Hq. lia.
  Qed.
End DepthBound.
