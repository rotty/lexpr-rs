(* C12: trivia between the octets of a byte vector. An octet layout spells the
   contents of "#u8( ... )" with explicit trivia before every octet; the
   octets are in the printer's decimal spelling. *)
From Coq Require Import SpecFloat Lia ZifyBool ZifyNat ZifyN.
Require Import Base Value Float PrintOptions Printer ParseOptions Utf8 Reader Scan Num NumberOps Parser.
Require Import ReaderProofs TextProofs TokenProofs NumTokenProofs CharStrProofs.

Definition olay := list (bytes * N).
Fixpoint olay_text (l : olay) : bytes :=
  match l with [] => [] | (t, o) :: l' => t ++ dec_of_N o ++ olay_text l' end.
(* an octet that is not the first is set off from its predecessor *)
Fixpoint olay_ok (first : bool) (l : olay) : Prop :=
  match l with
  | [] => True
  | (t, o) :: l' => trivia t /\ (first = true \/ t <> []) /\ o < 256 /\ olay_ok false l'
  end.

Section BytesLayout.
  Variable fast : bool.
  Variable std_parse : N -> Z -> f64.

  Lemma olay_rest_delim l cp rest : olay_ok false l -> trivia cp -> delim_ok (olay_text l ++ cp ++ 41 :: rest).
  Proof.
    destruct l as [|[t o] l']; cbn [olay_ok olay_text app].
    - intros _ Hcp. apply trivia_delim; [exact Hcp|reflexivity].
    - intros (Ht & [Hf|Hne] & _) _; [discriminate|]. rewrite <- app_assoc.
      destruct t as [|c t']; [contradiction|]. exact (trivia_delim (c :: t') 41 [] Ht eq_refl).
  Qed.

  Lemma byte_list_loop_lay l : forall fuel r acc cp rest first, olay_ok first l -> trivia cp ->
    (length (olay_text l) + length cp + 8 < fuel)%nat ->
    at_bytes r (olay_text l ++ cp ++ 41 :: rest) ->
    exists r', byte_list_loop fast std_parse fuel 41 acc r = (Ok (acc ++ map snd l), r') /\ at_bytes r' rest /\ rk r' = rk r.
  Proof.
    induction l as [|[t o] l IH]; intros fuel r acc cp rest first Hok Hcp Hf Ha;
      (destruct fuel as [|f]; [lia|]); cbn [byte_list_loop]; cbn [olay_text olay_ok app map snd length] in *.
    - destruct (ws_trivia cp Hcp f r 41 rest ltac:(lia) Ha close_starts_datum) as (r1 & E1 & Ha1 & Hp1 & Hk1).
      rewrite (bind_ok _ _ _ _ _ E1). change (41 =? 41) with true. cbv iota. step.
      exists r0. unfold ret. rewrite app_nil_r. repeat split; auto; congruence.
    - destruct Hok as (Ht & Hsep & Ho & Hok').
      destruct (dec_of_N_spec o) as (ds & E & Hne & Hd & Hv & _). rewrite E in *.
      destruct ds as [|d ds]; [contradiction|]. pose proof (Forall_inv Hd) as Hdig. cbv beta in Hdig.
      rewrite !app_length in Hf. cbn [length] in Hf.
      rewrite <- !app_assoc in Ha. cbn [app] in Ha.
      destruct (ws_trivia t Ht f r d _ ltac:(lia) Ha (digit_starts_datum d Hdig)) as (r1 & E1 & Ha1 & Hp1 & Hk1).
      rewrite (bind_ok _ _ _ _ _ E1).
      replace (d =? 41) with false by (unfold is_digit, in_range in Hdig; lia).
      pose proof (olay_rest_delim l cp rest Hok' Hcp) as Hr.
      change (d :: ds ++ olay_text l ++ cp ++ 41 :: rest) with ((d :: ds) ++ olay_text l ++ cp ++ 41 :: rest) in Ha1.
      destruct (parse_number_digits fast std_parse f r1 d ds _ ltac:(cbn [length]; lia) Hd Hr
                  ltac:(rewrite Hv; unfold u64_MAX; lia) Ha1) as (r2 & E2 & Ha2 & Hk2).
      rewrite (bind_ok _ _ _ _ _ E2). rewrite Hv. cbn [num_as_u64]. replace (255 <? o) with false by lia.
      destruct (IH f r2 (acc ++ [o]) cp rest false Hok' Hcp ltac:(lia) Ha2) as (r3 & E3 & Ha3 & Hk3).
      exists r3. rewrite E3, <- app_assoc. repeat split; auto; congruence.
  Qed.

  Lemma parse_byte_list_lay fuel r p0 l cp rest : trivia p0 -> olay_ok true l -> trivia cp ->
    (length p0 + length (olay_text l) + length cp + 10 < fuel)%nat ->
    at_bytes r (p0 ++ 40 :: olay_text l ++ cp ++ 41 :: rest) ->
    exists r', parse_byte_list fast std_parse fuel 41 r = (Ok (map snd l), r') /\ at_bytes r' rest /\ rk r' = rk r.
  Proof.
    intros Hp0 Hok Hcp Hf Ha. unfold parse_byte_list.
    destruct (ws_trivia p0 Hp0 fuel r 40 _ ltac:(lia) Ha ltac:(split; [reflexivity|discriminate])) as (r1 & E1 & Ha1 & Hp1 & Hk1).
    rewrite (bind_ok _ _ _ _ _ E1). change (40 =? 40) with true. cbv iota. step.
    destruct (byte_list_loop_lay l fuel r0 [] cp rest true Hok Hcp ltac:(lia) Ha0) as (r2 & E2 & Ha2 & Hk2).
    exists r2. rewrite E2. cbn [app]. repeat split; auto; congruence.
  Qed.

  (* the printer's layout: nothing before the first octet, one space before each of the others *)
  Fixpoint olay_of (first : bool) (bs : bytes) : olay :=
    match bs with [] => [] | o :: bs' => ((if first then [] else [32]), o) :: olay_of false bs' end.
  Lemma olay_of_spec bs : forall first, octets_ok bs ->
    olay_text (olay_of first bs) = octets_text first bs /\ map snd (olay_of first bs) = bs /\ olay_ok first (olay_of first bs).
  Proof.
    induction bs as [|o bs IH]; intros first Hok; [repeat split|]. inversion Hok as [|? ? Ho Hok']; subst.
    destruct (IH false Hok') as (Et & Em & Hl). cbn [olay_of olay_text map snd octets_text olay_ok]. rewrite Et, Em.
    split; [reflexivity|]. split; [reflexivity|].
    destruct first; (split; [|split; [|split; [exact Ho|exact Hl]]]);
      [constructor|left; reflexivity|apply tv_ws; [reflexivity|constructor]|right; discriminate].
  Qed.
  Lemma parse_byte_list_spec fuel r bs rest : octets_ok bs ->
    (length (octets_text true bs) + 10 < fuel)%nat ->
    at_bytes r (40 :: octets_text true bs ++ 41 :: rest) ->
    exists r', parse_byte_list fast std_parse fuel 41 r = (Ok bs, r') /\ at_bytes r' rest /\ rk r' = rk r.
  Proof.
    intros Hok Hf Ha. destruct (olay_of_spec bs true Hok) as (Et & Em & Hl). rewrite <- Et in Hf, Ha.
    destruct (parse_byte_list_lay fuel r [] (olay_of true bs) [] rest tv_nil Hl tv_nil ltac:(cbn [length]; lia) Ha) as (r' & E & H).
    exists r'. rewrite Em in E. auto.
  Qed.
End BytesLayout.
