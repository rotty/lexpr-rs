(* C05: integer literals with a radix prefix  #b #o #d #x [+|-] digits  read as
   exactly the integer they denote in that radix. *)
From Coq Require Import SpecFloat ZifyBool ZifyNat ZifyN.
Require Import Base Value Float PrintOptions ParseOptions Utf8 Reader Scan Num NumberOps Parser.
Require Import Printer ReaderProofs TokenProofs NumTokenProofs DecimalProofs.
Ltac Zify.zify_post_hook ::= Z.div_mod_to_equations.

Definition radix_ok (R : N) : Prop := R = 2 \/ R = 8 \/ R = 10 \/ R = 16.
Ltac radix_cases H := destruct H as [->|[->|[->| ->]]].

Definition rdigit_ok (R c : N) : Prop := exists v, digit_val (10 <? R) c = Some v /\ v < R.
Definition all_rdigits (R : N) (ds : bytes) : Prop := Forall (rdigit_ok R) ds.
Definition rval (R c : N) : N := match digit_val (10 <? R) c with Some v => v | None => 0 end.
Definition rfold (R acc : N) (ds : bytes) : N := fold_left (fun a c => a * R + rval R c) ds acc.

Lemma digit_val_letters l c v : digit_val l c = Some v -> v < 10 \/ l = true.
Proof.
  unfold digit_val. destruct (in_range 48 57 c) eqn:E; [intros H; inversion H; unfold in_range in E; lia|].
  destruct l; [auto|]. cbn. discriminate.
Qed.

Lemma all_rdigits_val R ds : all_rdigits R ds ->
  Forall (fun c => digit_val (10 <? R) c = Some (rval R c) /\ rval R c < R) ds.
Proof. apply Forall_impl. intros c (v & Ev & Hv). unfold rval. rewrite Ev. auto. Qed.

Lemma radix_pos R : radix_ok R -> 0 < R.
Proof. intros H. radix_cases H; reflexivity. Qed.

Section Radix.
  Variable fast : bool.
  Variable std_parse : N -> Z -> f64.

  Lemma num_token_rdigits R fuel r pos d ds rest : radix_ok R -> (length (d :: ds) < fuel)%nat ->
    all_rdigits R (d :: ds) -> delim_ok rest -> rfold R 0 (d :: ds) <= u64_MAX -> at_bytes r ((d :: ds) ++ rest) ->
    exists r', parse_num_token fast std_parse fuel R pos r = (Ok (int_result pos (rfold R 0 (d :: ds))), r') /\
               at_bytes r' rest /\ rk r' = rk r.
  Proof.
    intros HR Hf Hd.
    exact (num_token_run fast std_parse R (rval R) (radix_pos R HR) fuel r pos d ds rest Hf (all_rdigits_val R _ Hd)).
  Qed.

  Lemma radix_literal_run R fuel r sg d ds rest : radix_ok R -> (S (length (d :: ds)) < fuel)%nat ->
    all_rdigits R (d :: ds) -> delim_ok rest -> rfold R 0 (d :: ds) <= u64_MAX ->
    at_bytes r (sign_text sg ++ (d :: ds) ++ rest) ->
    exists r', parse_radix_literal fast std_parse fuel R r = (Ok (int_result (sign_pos sg) (rfold R 0 (d :: ds))), r') /\
               at_bytes r' rest /\ rk r' = rk r.
  Proof.
    intros HR Hf Hd Hr Hmax Ha. unfold parse_radix_literal.
    destruct sg as [[|]|]; cbn [sign_text sign_pos app] in *.
    - step. change (43 =? 45) with false. change (43 =? 43) with true. cbv iota. step.
      destruct (num_token_rdigits R fuel r1 true d ds rest HR ltac:(lia) Hd Hr Hmax Ha1) as (r2 & E & Ha2 & Hk2).
      exists r2. repeat split; auto; congruence.
    - step. change (45 =? 45) with true. cbv iota. step.
      destruct (num_token_rdigits R fuel r1 false d ds rest HR ltac:(lia) Hd Hr Hmax Ha1) as (r2 & E & Ha2 & Hk2).
      exists r2. repeat split; auto; congruence.
    - step. pose proof (Forall_inv Hd) as (v & Ev & Hv).
      assert (E45 : (d =? 45) = false) by (destruct (d =? 45) eqn:E; [apply N.eqb_eq in E; subst d; radix_cases HR; discriminate Ev|reflexivity]).
      assert (E43 : (d =? 43) = false) by (destruct (d =? 43) eqn:E; [apply N.eqb_eq in E; subst d; radix_cases HR; discriminate Ev|reflexivity]).
      rewrite E45, E43.
      destruct (num_token_rdigits R fuel r0 true d ds rest HR ltac:(lia) Hd Hr Hmax Ha0) as (r2 & E & Ha2 & Hk2).
      exists r2. repeat split; auto; congruence.
  Qed.
End Radix.

Definition radix_letter (R : N) : N := if R =? 2 then 98 else if R =? 8 then 111 else if R =? 10 then 100 else 120.

Section RadixTokens.
  Variable alpha : N -> bool.
  Variable fast : bool.
  Variable std_parse : N -> Z -> f64.
  Local Notation parse_token := (parse_token default_ro alpha fast std_parse).

  Lemma hash_arm_radix R fuel r l : radix_ok R -> at_bytes r (35 :: radix_letter R :: l) -> peeked r ->
    exists r', hash_arm fast std_parse fuel r = (n <- parse_radix_literal fast std_parse fuel R ;; ret (TNumber n)) r' /\
               at_bytes r' l /\ rk r' = rk r.
  Proof.
    intros HR Ha Hp. unfold hash_arm. step. step. exists r1. radix_cases HR; repeat split; auto; congruence.
  Qed.

  Theorem tok_radix_int R fuel r sg d ds rest : radix_ok R -> (S (length (d :: ds)) < fuel)%nat ->
    all_rdigits R (d :: ds) -> delim_ok rest -> rfold R 0 (d :: ds) <= u64_MAX ->
    at_bytes r (35 :: radix_letter R :: sign_text sg ++ (d :: ds) ++ rest) -> peeked r ->
    exists r', parse_token fuel 35 r = (Ok (TNumber (int_result (sign_pos sg) (rfold R 0 (d :: ds)))), r') /\
               at_bytes r' rest /\ rk r' = rk r.
  Proof.
    intros HR Hf Hd Hr Hmax Ha Hp. rewrite token_hash.
    destruct (hash_arm_radix R fuel r _ HR Ha Hp) as (r1 & E1 & Ha1 & Hk1).
    destruct (radix_literal_run fast std_parse R fuel r1 sg d ds rest HR Hf Hd Hr Hmax Ha1) as (r2 & E & Ha2 & Hk2).
    exists r2. rewrite E1, (bind_ok _ _ _ _ _ E). unfold ret. repeat split; auto; congruence.
  Qed.
End RadixTokens.
