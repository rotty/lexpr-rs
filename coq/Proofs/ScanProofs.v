(* Scanner lemmas on pure byte input: symbols (both variants). *)
From Coq Require Import ZifyBool ZifyNat.
Require Import Base Utf8 Reader Scan ReaderProofs.

Lemma valid_not_truncated_fuel fuel l : utf8_valid_fuel fuel l = true -> utf8_truncated_fuel fuel l = false.
Proof.
  revert l; induction fuel as [|f IH]; intros l H; destruct l as [|b l]; cbn [utf8_valid_fuel utf8_truncated_fuel] in *;
    try reflexivity; try discriminate.
  destruct (utf8_head_len (b :: l)) as [|n] eqn:E; [discriminate|]. apply IH. exact H.
Qed.
Lemma valid_not_truncated l : utf8_valid l = true -> utf8_truncated l = false.
Proof. apply valid_not_truncated_fuel. Qed.

Definition no_terminator (name : bytes) : Prop := Forall (fun c => is_symbol_terminator c = false) name.
Definition at_terminator (rest : bytes) : Prop :=
  match rest with [] => True | d :: _ => is_symbol_terminator d = true end.

Definition symbol_ok (whole : bytes) : Prop := beq_bytes whole [46] = false /\ utf8_valid whole = true.

Lemma symbol_ok_not_truncated whole : symbol_ok whole -> is_truncated_symbol whole = false.
Proof. intros [H1 H2]. unfold is_truncated_symbol. rewrite H1, (valid_not_truncated _ H2). reflexivity. Qed.

Lemma scan_symbol_io_spec name : forall fuel scratch rest r,
  (length name < fuel)%nat -> no_terminator name -> at_terminator rest ->
  at_bytes r (name ++ rest) -> symbol_ok (scratch ++ name) ->
  exists r', scan_symbol_io fuel scratch r = (Ok (scratch ++ name), r') /\ at_bytes r' rest /\
             rk r' = rk r /\ (rest <> [] -> peeked r').
Proof.
  induction name as [|c name IH]; intros fuel scratch rest r Hf Hn Ht Ha Hok.
  - destruct fuel as [|f]; [cbn in Hf; lia|]. cbn [scan_symbol_io app] in *. rewrite app_nil_r in *.
    destruct Hok as [Hdot Hv]. pose proof (symbol_ok_not_truncated _ (conj Hdot Hv)) as Htr.
    destruct rest as [|d rest].
    + destruct (m_peek_nil r Ha) as (r' & E & Ha' & Hk'). rewrite (bind_ok _ _ _ _ _ E).
      rewrite Htr, Hdot. exists r'. unfold ret. repeat split; auto. congruence.
    + destruct (m_peek_cons r d rest Ha) as (r' & E & Ha' & Hp & Hk). rewrite (bind_ok _ _ _ _ _ E).
      cbn [at_terminator] in Ht. rewrite Ht, Hdot. exists r'. unfold ret. repeat split; auto.
  - destruct fuel as [|f]; [cbn in Hf; lia|]. cbn [scan_symbol_io]. cbn [app] in Ha.
    destruct (m_peek_cons r c (name ++ rest) Ha) as (r1 & E1 & Ha1 & Hp1 & Hk1). rewrite (bind_ok _ _ _ _ _ E1).
    inversion Hn as [|? ? Hc Hn']; subst. rewrite Hc.
    destruct (m_eat r1 c (name ++ rest) Ha1 Hp1) as (r2 & E2 & Ha2 & Hk2). rewrite (bind_ok _ _ _ _ _ E2).
    destruct (IH f (scratch ++ [c]) rest r2) as (r3 & E3 & Ha3 & Hk3 & Hp3); auto.
    + cbn in Hf. lia.
    + now rewrite <- app_assoc.
    + exists r3. rewrite <- app_assoc in E3. cbn [app] in E3. repeat split; auto. congruence.
Qed.

Lemma span_symbol_spec name : forall rest acc, no_terminator name -> at_terminator rest ->
  span_symbol (bytes_events (name ++ rest)) acc = (acc ++ name, bytes_events rest).
Proof.
  induction name as [|c name IH]; intros rest acc Hn Ht.
  - cbn [app]. rewrite app_nil_r. destruct rest as [|d rest]; [reflexivity|].
    cbn [bytes_events map span_symbol]. cbn [at_terminator] in Ht. now rewrite Ht.
  - inversion Hn as [|? ? Hc Hn']; subst. cbn [app bytes_events map span_symbol]. rewrite Hc.
    change (map EByte (name ++ rest)) with (bytes_events (name ++ rest)).
    rewrite IH by assumption. now rewrite <- app_assoc.
Qed.

Lemma advance_over_at r bs rest : at_bytes (advance_over r bs (bytes_events rest)) rest /\ rk (advance_over r bs (bytes_events rest)) = rk r.
Proof. unfold advance_over, at_bytes. destruct (fold_left _ bs _). cbn. auto. Qed.

Lemma scan_symbol_slice_spec name scratch rest r :
  no_terminator name -> at_terminator rest -> at_bytes r (name ++ rest) -> symbol_ok (scratch ++ name) ->
  exists r', scan_symbol_slice scratch r = (Ok (scratch ++ name), r') /\ at_bytes r' rest /\ rk r' = rk r.
Proof.
  intros Hn Ht Ha Hok. unfold scan_symbol_slice. unfold at_bytes in Ha. rewrite Ha.
  rewrite (span_symbol_spec name rest [] Hn Ht). cbn [app].
  destruct (advance_over_at r name rest) as [Ha' Hk'].
  destruct Hok as [Hdot Hv]. pose proof (symbol_ok_not_truncated _ (conj Hdot Hv)) as Htr.
  rewrite Htr, Hdot.
  replace (match bytes_events rest with [] => true | _ :: _ => false end && false) with false
    by (destruct (bytes_events rest); reflexivity).
  exists (advance_over r name (bytes_events rest)). unfold ret. auto.
Qed.

(* Read::parse_symbol, any source kind *)
Lemma parse_symbol_spec name fuel scratch rest r :
  (length name < fuel)%nat -> no_terminator name -> at_terminator rest ->
  at_bytes r (name ++ rest) -> symbol_ok (scratch ++ name) ->
  exists r', parse_symbol_rd fuel scratch r = (Ok (scratch ++ name), r') /\ at_bytes r' rest /\
             rk r' = rk r /\ (rest <> [] -> peeked r').
Proof.
  intros Hf Hn Ht Ha Hok. unfold parse_symbol_rd. destruct (rk r) eqn:Ek.
  1, 2: destruct (scan_symbol_slice_spec name scratch rest r Hn Ht Ha Hok) as (r' & E & Ha' & Hk');
    rewrite (bind_ok _ _ _ _ _ E); unfold finish_str, as_str; rewrite Hk', Ek, ?(proj2 Hok); exists r'; unfold ret;
    (split; [reflexivity|]); (split; [exact Ha'|]); split; [congruence|intros _ Hio; congruence].
  - destruct (scan_symbol_io_spec name fuel scratch rest r Hf Hn Ht Ha Hok) as (r' & E & Ha' & Hk' & Hp').
    rewrite (bind_ok _ _ _ _ _ E). unfold as_str. destruct Hok as [_ Hv]. rewrite Hv.
    exists r'. unfold ret. split; [reflexivity|]. split; [exact Ha'|]. split; [congruence|exact Hp'].
Qed.
