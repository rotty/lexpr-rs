(* write_all over an adversarial sink: nothing lost, errors surface. *)
Require Import Base Printer Sink PrinterProofs.
From Coq Require Import ZifyBool ZifyNat ZifyN.
Local Open Scope nat_scope.

(* The outcome of sending [buf] with write_all after [d0] has been delivered. *)
Definition expected (s : sched) (d0 buf : bytes) : wres * bytes :=
  match limit s with
  | None => (WOk, d0 ++ buf)
  | Some lim =>
      if (N.of_nat (length d0 + length buf) <=? lim)%N then (WOk, d0 ++ buf)
      else ((if hard s then WErrHard else WErrZero),
            d0 ++ firstn (N.to_nat lim - length d0) buf)
  end.

Lemma expected_fits s d0 a :
  (forall lim, limit s = Some lim -> (N.of_nat (length d0 + length a) <= lim)%N) ->
  expected s d0 a = (WOk, d0 ++ a).
Proof.
  intros H. unfold expected. destruct (limit s) as [lim|]; [|reflexivity]. specialize (H lim eq_refl).
  destruct (N.of_nat (length d0 + length a) <=? lim)%N eqn:E; [reflexivity|lia].
Qed.

Lemma expected_app s d0 a b :
  expected s d0 (a ++ b) = match expected s d0 a with (WOk, d) => expected s d b | x => x end.
Proof.
  unfold expected. destruct (limit s) as [lim|]; [|now rewrite app_assoc]. rewrite !app_length.
  destruct (N.of_nat (length d0 + length a) <=? lim)%N eqn:E1.
  - rewrite app_length, Nat.add_assoc, <- app_assoc.
    destruct (N.of_nat (length d0 + length a + length b) <=? lim)%N; [reflexivity|].
    rewrite firstn_app, firstn_all2, <- app_assoc by lia. do 4 f_equal. lia.
  - destruct (N.of_nat (length d0 + (length a + length b)) <=? lim)%N eqn:E2; [lia|].
    rewrite firstn_app. replace (N.to_nat lim - length d0 - length a) with 0 by lia.
    cbn [firstn]. rewrite app_nil_r. destruct (hard s); reflexivity.
Qed.

Lemma write_all_spec fuel s d0 buf :
  length buf < fuel ->
  (forall lim, limit s = Some lim -> (N.of_nat (length d0) <= lim)%N) ->
  write_all_fuel fuel s d0 buf = expected s d0 buf.
Proof.
  revert d0 buf; induction fuel as [|f IH]; intros d0 buf Hf Hlim; [lia|].
  destruct buf as [|b buf'].
  { rewrite expected_fits; [cbn; now rewrite app_nil_r|]. cbn [length]. rewrite Nat.add_0_r. exact Hlim. }
  cbn [write_all_fuel]. set (buf := b :: buf') in *.
  assert (Hlen : length buf = S (length buf')) by reflexivity.
  assert (Hstep : forall n, 1 <= n <= length buf ->
            (forall lim, limit s = Some lim -> n <= N.to_nat lim - length d0) ->
            write_all_fuel f s (d0 ++ firstn n buf) (skipn n buf) = expected s d0 buf).
  { intros n Hn Hnl. rewrite <- (firstn_skipn n buf) at 3. rewrite expected_app, expected_fits.
    - apply IH; [rewrite skipn_length; lia|]. intros lim Hl. specialize (Hnl lim Hl).
      rewrite app_length, firstn_length. lia.
    - intros lim Hl. specialize (Hnl lim Hl). rewrite firstn_length. lia. }
  unfold limit_reached, accept_count. destruct (limit s) as [lim|] eqn:El.
  - specialize (Hlim lim eq_refl). destruct (lim <=? N.of_nat (length d0))%N eqn:E1.
    + unfold expected. rewrite El.
      destruct (N.of_nat (length d0 + length buf) <=? lim)%N eqn:E2; [lia|].
      replace (N.to_nat lim - length d0) with 0 by lia. cbn [firstn]. now rewrite app_nil_r.
    + set (n := N.to_nat (N.min (N.min (N.of_nat (length buf)) (N.max 1 (cap s))) (lim - N.of_nat (length d0)))).
      assert (Hn : 1 <= n <= length buf) by (unfold n; lia).
      assert (Hnl : n <= N.to_nat lim - length d0) by (unfold n; lia).
      clearbody n. destruct n as [|n'] eqn:En; [lia|]. rewrite <- En in *.
      apply Hstep; [exact Hn|]. intros lim' Hl'. inversion Hl'; subst lim'. exact Hnl.
  - set (n := N.to_nat (N.min (N.of_nat (length buf)) (N.max 1 (cap s)))).
    assert (Hn : 1 <= n <= length buf) by (unfold n; lia).
    clearbody n. destruct n as [|n'] eqn:En; [lia|]. rewrite <- En in *.
    apply Hstep; [exact Hn|]. intros lim' Hl'. discriminate.
Qed.

Lemma run_sink_spec s t : all_wall t -> forall d0,
  (forall lim, limit s = Some lim -> (N.of_nat (length d0) <= lim)%N) ->
  run_sink s d0 t = expected s d0 (flatten t).
Proof.
  induction 1 as [|[k buf] t Hk Ht IH]; intros d0 Hlim.
  - rewrite expected_fits; [cbn; now rewrite app_nil_r|]. cbn [flatten map concat length]. rewrite Nat.add_0_r. exact Hlim.
  - cbn [fst] in Hk. subst k. cbn [run_sink].
    rewrite write_all_spec by (auto; lia).
    change (flatten ((WAll, buf) :: t)) with (buf ++ flatten t). rewrite expected_app.
    destruct (expected s d0 buf) as [[| |] d] eqn:Eb; try reflexivity.
    apply IH. intros lim Hl. unfold expected in Eb. rewrite Hl in Eb.
    destruct (N.of_nat (length d0 + length buf) <=? lim)%N eqn:E; [|destruct (hard s); discriminate].
    injection Eb as <-. rewrite app_length. lia.
Qed.

(* The four clauses of C07, for any emission trace made of write_all calls. *)
Theorem sink_delivery s t : all_wall t ->
  let '(r, d) := run_sink s [] t in
  (exists rest, flatten t = d ++ rest) /\
  (r = WOk -> d = flatten t) /\
  (forall lim, limit s = Some lim -> (lim < N.of_nat (length (flatten t)))%N ->
     r = (if hard s then WErrHard else WErrZero) /\ d = firstn (N.to_nat lim) (flatten t)) /\
  ((limit s = None \/ exists lim, limit s = Some lim /\ (N.of_nat (length (flatten t)) <= lim)%N) ->
     r = WOk /\ d = flatten t).
Proof.
  intros Ht. rewrite (run_sink_spec s t Ht []) by (intros; cbn [length]; lia).
  unfold expected. cbn [length Nat.add app].
  destruct (limit s) as [lim|] eqn:El; rewrite ?Nat.sub_0_r.
  - destruct (N.of_nat (length (flatten t)) <=? lim)%N eqn:E.
    + split; [exists []; now rewrite app_nil_r|].
      split; [reflexivity|].
      split; [intros lim' Hl' Hlt; inversion Hl'; subst; lia|].
      intros _; split; reflexivity.
    + split; [exists (skipn (N.to_nat lim) (flatten t)); now rewrite firstn_skipn|].
      split; [destruct (hard s); discriminate|].
      split; [intros lim' Hl' Hlt; inversion Hl'; subst; split; reflexivity|].
      intros [H|[lim' [H H']]]; [discriminate|inversion H; subst; lia].
  - split; [exists []; now rewrite app_nil_r|].
    split; [reflexivity|].
    split; [intros lim' Hl'; discriminate|].
    intros _; split; reflexivity.
Qed.

(* The model can express the failure the property rules out: a bare write
   loses bytes on a short-writing sink and still reports success. *)
Example write_once_loses_bytes :
  run_sink {| cap := 1%N; limit := None; hard := true |} [] [(WOnce, [49; 50; 51]%N)] = (WOk, [49]%N).
Proof. reflexivity. Qed.
