(* C10, second sentence: walking a datum with its list, vector and pair
   accessors exposes exactly the structure the value's own accessors expose.
   (1) every datum the parser returns - for any input, option set and source -
   carries span information of the same shape as its value; (2) on such a
   datum no accessor panics, the list iterator runs in lockstep with the
   value's list iterator, vector_iter yields every element, as_pair agrees with
   Value::as_pair, and every reference reached this way is again well shaped. *)
From Coq Require Import ZifyBool ZifyNat ZifyN.
Require Import Base Value Float PrintOptions ParseOptions Utf8 Reader Scan Num NumberOps Parser ListOps DatumRef.
Require Import DepthBoundProofs.

Fixpoint shaped (v : value) (i : span_info) {struct i} : Prop :=
  match i with
  | SPrim _ => is_cons v = false /\ is_vector v = false
  | SCons _ ia id => match v with Cons a d => shaped a ia /\ shaped d id | _ => False end
  | SVec _ ms =>
      match v with
      | Vector l =>
          (fix all (l : list value) (ms : list span_info) {struct ms} : Prop :=
             match ms, l with
             | [], [] => True
             | m :: ms', x :: l' => shaped x m /\ all l' ms'
             | _, _ => False
             end) l ms
      | _ => False
      end
  end.
Definition all_shaped : list value -> list span_info -> Prop :=
  fix all (l : list value) (ms : list span_info) {struct ms} : Prop :=
    match ms, l with
    | [], [] => True
    | m :: ms', x :: l' => shaped x m /\ all l' ms'
    | _, _ => False
    end.
Lemma shaped_vec sp l ms : shaped (Vector l) (SVec sp ms) = all_shaped l ms.
Proof. reflexivity. Qed.

Definition dshaped (d : datum) : Prop := shaped (dvalue d) (dinfo d).
Definition rshaped (r : dref) : Prop := shaped (fst r) (snd r).

Lemma all_shaped_map ds : Forall dshaped ds -> all_shaped (map dvalue ds) (map dinfo ds).
Proof. induction 1 as [|d ds Hd _ IH]; cbn [map all_shaped]; auto. Qed.

Lemma all_shaped_combine l ms : all_shaped l ms ->
  length l = length ms /\ map fst (combine l ms) = l /\ map snd (combine l ms) = ms /\ Forall rshaped (combine l ms).
Proof.
  revert l. induction ms as [|m ms IH]; intros [|x l]; cbn [all_shaped]; try contradiction.
  - intros _. repeat split; constructor.
  - intros [Hx Hl]. destruct (IH l Hl) as (E1 & E2 & E3 & E4). cbn [combine map length fst snd].
    repeat split; try congruence. constructor; [exact Hx|exact E4].
Qed.

Lemma chain_shaped ds tv tm : Forall dshaped ds -> shaped tv tm ->
  shaped (build (map dvalue ds) tv) (chain_meta (map dinfo ds) tm).
Proof. induction 1 as [|d ds Hd _ IH]; intros Ht; cbn [map build chain_meta shaped]; auto. Qed.

Lemma prim_shaped v a b : is_cons v = false -> is_vector v = false -> dshaped (prim_datum v a b).
Proof. intros H1 H2. split; assumption. Qed.

Lemma symbol_value_atom ro name : is_cons (symbol_value ro name) = false /\ is_vector (symbol_value ro name) = false.
Proof. unfold symbol_value. destruct (symbol_token ro name); split; reflexivity. Qed.

Lemma list_datum_shaped ds tail a b : Forall dshaped ds -> (match tail with Some t => dshaped t | None => True end) ->
  dshaped (list_datum (ds, tail) a b).
Proof.
  intros Hds Ht. destruct ds as [|d1 ds]; cbn [list_datum].
  - apply prim_shaped; reflexivity.
  - inversion Hds as [|? ? H1 Hrest]; subst. unfold dshaped, list_meta. cbn [dvalue dinfo map build shaped].
    split; [exact H1|]. apply chain_shaped; [exact Hrest|]. destruct tail as [t|]; [exact Ht|split; reflexivity].
Qed.

Lemma quotation_shaped name q sp : dshaped q -> dshaped (quotation_datum name q sp).
Proof.
  intros Hq. unfold dshaped, quotation_datum, vlist. cbn [dvalue dinfo build shaped].
  repeat split; try reflexivity. exact Hq.
Qed.

Lemma vector_shaped els sp : Forall dshaped els ->
  dshaped {| dvalue := Vector (map dvalue els); dinfo := SVec sp (map dinfo els) |}.
Proof. intros H. unfold dshaped. cbn [dvalue dinfo]. rewrite shaped_vec. apply all_shaped_map. exact H. Qed.

(* postconditions on results only: pinv without an invariant *)
Lemma post_skip {A B} (m : PM A) (f : A -> PM B) (q : B -> Prop) :
  (forall a, pinv nopre nopre (f a) q) -> pinv nopre nopre (pbind m f) q.
Proof. apply pinv_skip, pinv_any. Qed.

Definition opt_shaped (o : option datum) : Prop := match o with Some d => dshaped d | None => True end.

Section Shaped.
  Variable ro : parse_options.
  Variable alpha : N -> bool.
  Variable fast : bool.
  Variable std_parse : N -> Z -> f64.
  Local Notation next_datum := (next_datum ro alpha fast std_parse).
  Local Notation parse_list_meta := (parse_list_meta ro alpha fast std_parse).
  Local Notation parse_vector_meta := (parse_vector_meta ro alpha fast std_parse).

  Definition list_res_shaped (l : list datum * option datum) : Prop :=
    Forall dshaped (fst l) /\ match snd l with Some t => dshaped t | None => True end.

  Ltac prim_case := apply post_skip; intros ?e; apply pinv_ret; apply prim_shaped; reflexivity.

  Theorem datums_shaped fuel :
    pinv nopre nopre (next_datum fuel) opt_shaped /\
    (forall t acc, Forall dshaped acc -> pinv nopre nopre (parse_list_meta fuel t acc) list_res_shaped) /\
    (forall t acc, Forall dshaped acc -> pinv nopre nopre (parse_vector_meta fuel t acc) (Forall dshaped)).
  Proof.
    induction fuel as [|f (IHv & IHl & IHvec)].
    - split; [|split]; intros; cbn [Parser.next_datum Parser.parse_list_meta Parser.parse_vector_meta]; apply pinv_fail.
    - split; [|split]; intros; cbn [Parser.next_datum Parser.parse_list_meta Parser.parse_vector_meta]; fold next_datum parse_list_meta parse_vector_meta.
      + apply post_skip. intros o. destruct o as [b|]; [|apply pinv_ret; exact I].
        apply post_skip. intros start. apply post_skip. intros tok. cbv zeta.
        destruct tok; try prim_case.
        * (* list *)
          apply post_skip. intros _.
          apply (pinv_nest_seq nopre nopre _ _ _ list_res_shaped opt_shaped); [apply (IHl _ []); constructor|apply pinv_any|].
          intros l Hl. apply post_skip. intros e_pos. apply pinv_ret. cbn [opt_shaped].
          destruct l as [ds tail]. destruct Hl as [H1 H2]. apply list_datum_shaped; assumption.
        * (* quotation *)
          apply post_skip. intros token_end. apply post_skip. intros _.
          apply (pinv_nest_quote nopre nopre _ _ opt_shaped opt_shaped); [exact IHv|].
          intros o Ho. destruct o as [d|]; [|apply pinv_err]. apply pinv_ret. cbn [opt_shaped]. apply quotation_shaped. exact Ho.
        * (* vector *)
          apply post_skip. intros _.
          apply (pinv_nest_seq nopre nopre _ _ _ (Forall dshaped) opt_shaped); [apply (IHvec _ []); constructor|apply pinv_any|].
          intros els Hels. apply post_skip. intros e_pos. apply pinv_ret. cbn [opt_shaped]. apply vector_shaped. exact Hels.
        * (* byte vector *)
          apply post_skip. intros bs. prim_case.
      + apply post_skip. intros o. destruct o as [c|]; [|apply pinv_err].
        destruct (is_closer c).
        { destruct (negb (c =? t)); [apply pinv_err|]. apply pinv_ret. split; [assumption|exact I]. }
        destruct (c =? 46).
        { apply post_skip. intros start. apply post_skip. intros nx.
          destruct (lone_dot nx).
          - destruct acc as [|x acc'].
            + apply post_skip. intros o3. destruct o3; apply pinv_err.
            + eapply pinv_bind; [exact IHv|]. intros od Hod.
              destruct od as [cdr|]; [|apply pinv_err].
              apply post_skip. intros o2. destruct o2 as [c2|]; [|apply pinv_err].
              destruct (c2 =? t); [|apply pinv_err]. apply pinv_ret. split; assumption.
          - apply post_skip. intros name. apply post_skip. intros e.
            apply IHl. apply Forall_snoc; [assumption|]. apply prim_shaped; apply symbol_value_atom. }
        eapply pinv_bind; [exact IHv|]. intros od Hod.
        destruct od as [d|]; [|apply pinv_err]. apply IHl. apply Forall_snoc; assumption.
      + apply post_skip. intros o. destruct o as [c|]; [|apply pinv_err].
        destruct (is_closer c).
        { destruct (negb (c =? t)); [apply pinv_err|]. apply pinv_ret. assumption. }
        eapply pinv_bind; [exact IHv|]. intros od Hod.
        destruct od as [d|]; [|apply pinv_err]. apply IHvec. apply Forall_snoc; assumption.
  Qed.

  Theorem next_datum_shaped fuel s d s' : next_datum fuel s = (POk (Some d), s') -> dshaped d.
  Proof. intros E. pose proof (proj1 (datums_shaped fuel) s I I) as H. rewrite E in H. apply H. Qed.

  Theorem datum_from_trait_shaped k inp d : datum_from_trait ro alpha fast std_parse k inp = POk d -> dshaped d.
  Proof. intros [s1 E1]%datum_from_trait_next. exact (next_datum_shaped _ _ _ _ E1). Qed.

  Theorem iterate_datums_shaped fuel n s : Forall (fun r => match r with POk d => dshaped d | PErr _ => True end)
                                                  (iterate_datums ro alpha fast std_parse fuel n s).
  Proof.
    revert s. induction n as [|n IH]; intros s; cbn [iterate_datums]; [constructor|].
    pose proof (proj1 (datums_shaped fuel) s I I) as H.
    destruct (next_datum fuel s) as [[[d|]|e] s1]; [constructor; [apply H|apply IH]|constructor|constructor; [exact I|apply IH]].
  Qed.
End Shaped.

Definition cur_shaped (c : ref_cursor) : Prop :=
  match c with
  | RCons a d ia id => shaped a ia /\ shaped d id
  | RDot v i | RRest v i => shaped v i
  | RExhausted => True
  end.
Definition cur_val (c : ref_cursor) : list_cursor :=
  match c with
  | RCons a d _ _ => LCons a d
  | RDot v _ => LDot v
  | RRest v _ => LRest v
  | RExhausted => LExhausted
  end.

Theorem ref_list_iter_agrees r : rshaped r ->
  match ref_list_iter r, value_list_iter (fst r) with
  | Some c, Some vc => cur_val c = vc /\ cur_shaped c
  | None, None => True
  | _, _ => False
  end.
Proof.
  destruct r as [v i]. unfold rshaped. cbn [fst snd].
  destruct i as [sp|sp ia id|sp ms]; destruct v; cbn [shaped ref_list_iter value_list_iter]; try tauto;
    try (intros [H1 H2]; discriminate).
  all: intros H; cbn [cur_val cur_shaped]; repeat split; try reflexivity; tauto.
Qed.

Theorem ref_list_next_agrees c : cur_shaped c ->
  exists o c', ref_list_next c = Val (o, c') /\
               list_iter_next (cur_val c) = (option_map fst o, cur_val c') /\
               cur_shaped c' /\ (match o with Some r => rshaped r | None => True end).
Proof.
  destruct c as [a d ia id|v i|v i|]; cbn [cur_shaped ref_list_next cur_val list_iter_next].
  - intros [Ha Hd]. destruct id as [sp|sp ia' id'|sp ms]; cbn [shaped] in Hd.
    + destruct Hd as [Hc Hv]. destruct (is_null d) eqn:En.
      * destruct d; try discriminate. eexists _, _. repeat split; try reflexivity. exact Ha.
      * eexists _, _. split; [reflexivity|]. split; [destruct d; try discriminate; reflexivity|].
        split; [cbn [cur_shaped shaped]; auto|exact Ha].
    + destruct d as [| | | | | | | | |a' d'|]; try contradiction. destruct Hd as [Ha' Hd'].
      eexists _, _. repeat split; try reflexivity; auto.
    + destruct d; try contradiction. eexists _, _. repeat split; try reflexivity; auto.
  - intros H. eexists _, _. repeat split; try reflexivity; auto.
  - intros H. eexists _, _. repeat split; try reflexivity; auto.
  - intros _. eexists _, _. repeat split; reflexivity.
Qed.

Theorem ref_drain_agrees n : forall c, cur_shaped c ->
  exists items, ref_drain n c = Val items /\ map (option_map fst) items = drain n (cur_val c) /\
                Forall (fun o => match o with Some r => rshaped r | None => True end) items.
Proof.
  induction n as [|n IH]; intros c Hc; cbn [ref_drain drain].
  - exists []. repeat split; constructor.
  - destruct (ref_list_next_agrees c Hc) as (o & c' & E & Ev & Hc' & Ho). rewrite E, Ev.
    destruct (IH c' Hc') as (items & Ei & Em & Hi). rewrite Ei. exists (o :: items).
    split; [reflexivity|]. split; [cbn [map]; rewrite Em; reflexivity|constructor; assumption].
Qed.

Theorem ref_vector_iter_agrees r : rshaped r ->
  match ref_vector_iter r, fst r with
  | Some items, Vector els => map fst items = els /\ length items = length els /\ Forall rshaped items
  | None, Vector _ => False
  | Some _, _ => False
  | None, _ => True
  end.
Proof.
  destruct r as [v i]. unfold rshaped. cbn [fst snd].
  destruct v as [| | | | | | | | | |l];
    try (destruct i as [sp|sp ia id|sp ms]; cbn [shaped ref_vector_iter]; intros H; try exact I; tauto).
  destruct i as [sp|sp ia id|sp ms]; cbn [ref_vector_iter].
  - cbn [shaped]. intros [_ H]. discriminate H.
  - cbn [shaped]. tauto.
  - rewrite shaped_vec. intros H. destruct (all_shaped_combine l ms H) as (E1 & E2 & E3 & E4).
    split; [exact E2|]. split; [transitivity (Nat.min (length l) (length ms)); [apply combine_length|rewrite <- E1; apply Nat.min_id]|exact E4].
Qed.

Theorem ref_as_pair_agrees r : rshaped r ->
  match ref_as_pair r, fst r with
  | Val (Some (ra, rd)), Cons a d => fst ra = a /\ fst rd = d /\ rshaped ra /\ rshaped rd
  | Val None, Cons _ _ => False
  | Val None, _ => True
  | Val (Some _), _ => False
  | Panic, _ => False
  end.
Proof.
  destruct r as [v i]. unfold rshaped, ref_as_pair. cbn [fst snd].
  destruct v; try (intros _; exact I).
  destruct i as [sp|sp ia id|sp ms]; cbn [shaped].
  - intros [H1 H2]. discriminate H1.
  - intros [H1 H2]. repeat split; assumption.
  - tauto.
Qed.

Inductive reach : dref -> dref -> Prop :=
| reach_refl r : reach r r
| reach_list r c n items r' r'' : ref_list_iter r = Some c -> ref_drain n c = Val items -> In (Some r') items ->
    reach r' r'' -> reach r r''
| reach_vec r items r' r'' : ref_vector_iter r = Some items -> In r' items -> reach r' r'' -> reach r r''
| reach_car r ra rd r'' : ref_as_pair r = Val (Some (ra, rd)) -> reach ra r'' -> reach r r''
| reach_cdr r ra rd r'' : ref_as_pair r = Val (Some (ra, rd)) -> reach rd r'' -> reach r r''.

Theorem reach_shaped r r' : reach r r' -> rshaped r -> rshaped r'.
Proof.
  induction 1 as [r|r c n items r' r'' Ei Ed Hin _ IH|r items r' r'' Ev Hin _ IH|r ra rd r'' Ep _ IH|r ra rd r'' Ep _ IH]; intros Hr.
  - exact Hr.
  - apply IH. pose proof (ref_list_iter_agrees r Hr) as H. rewrite Ei in H.
    destruct (value_list_iter (fst r)); [|contradiction]. destruct H as [_ Hc].
    destruct (ref_drain_agrees n c Hc) as (items' & E' & _ & Hall). rewrite Ed in E'. inversion E'; subst items'.
    rewrite Forall_forall in Hall. exact (Hall _ Hin).
  - apply IH. pose proof (ref_vector_iter_agrees r Hr) as H. rewrite Ev in H.
    destruct (fst r); try contradiction. destruct H as (_ & _ & Hall). rewrite Forall_forall in Hall. exact (Hall _ Hin).
  - apply IH. pose proof (ref_as_pair_agrees r Hr) as H. rewrite Ep in H. destruct (fst r); try contradiction. apply H.
  - apply IH. pose proof (ref_as_pair_agrees r Hr) as H. rewrite Ep in H. destruct (fst r); try contradiction. apply H.
Qed.
