(* C17, printer side: for every value whose strs are well-formed UTF-8 and
   every printer option set the printed text is well-formed UTF-8. *)
From Coq Require Import SpecFloat Lia ZifyBool ZifyNat ZifyN.
Require Import Base Value Float PrintOptions Printer Utf8 Scan.
Require Import PrinterProofs TextProofs Utf8Proofs NumTokenProofs CharStrProofs.

Definition U (tr : trace) : Prop := seqs (flatten tr).

Lemma U_nil : U [].  Proof. constructor. Qed.
Lemma U_app a b : U a -> U b -> U (a ++ b).
Proof. unfold U. rewrite flatten_app. apply seqs_app. Qed.
Lemma U_wall_ascii l : all_ascii l -> U (wall l).
Proof. unfold U. rewrite flatten_wall. apply ascii_seqs. Qed.
Lemma U_wall_seqs l : seqs l -> U (wall l).
Proof. unfold U. now rewrite flatten_wall. Qed.

Lemma digits_ascii ds : all_digits ds -> all_ascii ds.
Proof. apply Forall_impl. intros b H. unfold is_digit, in_range in H. lia. Qed.
Lemma lower_hex_ascii ds : all_lower_hex ds -> all_ascii ds.
Proof. apply Forall_impl. intros b H. unfold is_lower_hex, in_range in H. lia. Qed.
Lemma dec_ascii n : all_ascii (dec_of_N n).
Proof. destruct (dec_of_N_spec n) as (ds & -> & _ & Hd & _). apply digits_ascii, Hd. Qed.
Lemma hex_ascii n : all_ascii (hex_of_N n).
Proof. destruct (hex_of_N_spec n) as (ds & -> & _ & Hd & _). apply lower_hex_ascii, Hd. Qed.
Lemma dec_Z_ascii z : all_ascii (dec_of_Z z).
Proof.
  destruct z as [|p|p]; cbn [dec_of_Z]; [repeat constructor; lia|apply dec_ascii|].
  constructor; [lia|apply dec_ascii].
Qed.

Ltac ascii_lit := repeat constructor; lia.

Record utf8_fmt (F : formatter) : Prop := {
  u_nil : U (write_nil F);
  u_null : U (write_null F);
  u_bool : forall b, U (write_bool F b);
  u_number : forall n, U (write_number F n);
  u_char : forall c, U (write_char F c);
  u_bstr : U (begin_string F);
  u_estr : U (end_string F);
  u_frag : forall s, write_string_fragment F s = wall s;
  u_esc : forall b e, escape_of b = Some e -> all_ascii (flatten (write_char_escape F e));
  u_sym : forall s, seqs s -> U (write_symbol F s);
  u_kw : forall s, seqs s -> U (write_keyword F s);
  u_bytes : forall b, U (write_bytes F b);
  u_blist : U (begin_list F);
  u_elist : U (end_list F);
  u_bse : forall b, U (begin_seq_element F b);
  u_ese : U (end_seq_element F);
  u_bvec : forall k, U (begin_vector F k);
  u_evec : U (end_vector F);
  u_dot : U (write_dot F);
}.

Section Utf8Print.
  Variable ryu : f64 -> bytes.
  (* ryu writes digits, '.', 'e', '-', "NaN", "inf": an oracle, assumed ASCII *)
  Hypothesis ryu_ascii : forall f, all_ascii (ryu f).

  Lemma U_number n : U (d_write_number ryu n).
  Proof. destruct n; cbn [d_write_number]; apply U_wall_ascii; auto using dec_ascii, dec_Z_ascii. Qed.

  Lemma U_scheme_char c : U (write_scheme_char c).
  Proof.
    unfold write_scheme_char. destruct ((32 <=? c) && (c <? 127))%bool eqn:E.
    - apply U_wall_ascii. repeat constructor; lia.
    - apply U_app; apply U_wall_ascii; [ascii_lit|apply hex_ascii].
  Qed.
  Lemma U_elisp_char c : U (write_elisp_char c).
  Proof.
    unfold write_elisp_char. destruct ((32 <=? c) && (c <? 127))%bool eqn:E.
    - destruct (memb c ELISP_ESCAPE_CHARS); apply U_wall_ascii; repeat constructor; lia.
    - apply U_app; apply U_wall_ascii; [ascii_lit|apply hex_ascii].
  Qed.

  Lemma U_octets first bs : U (octets d_begin_seq_element [] first bs).
  Proof.
    revert first. induction bs as [|o bs IH]; intros first; cbn [octets]; [apply U_nil|].
    apply U_app; [destruct first; cbn [d_begin_seq_element]; [apply U_nil|apply U_wall_ascii; ascii_lit]|].
    apply U_app; [apply U_wall_ascii, dec_ascii|]. apply U_app; [apply U_nil|apply IH].
  Qed.
  Lemma U_elisp_octets bs : U (elisp_octets bs).
  Proof.
    induction bs as [|o bs IH]; cbn [elisp_octets]; [apply U_nil|].
    repeat apply U_app; try exact IH; apply U_wall_ascii; unfold octal_digit; repeat constructor; lia.
  Qed.

  Lemma hex_upper_ascii v : v < 16 -> hex_digit_upper v < 128.
  Proof. unfold hex_digit_upper. destruct (v <? 10); lia. Qed.

  Lemma escape_of_ctrl b c : escape_of b = Some (EAsciiControl c) -> c < 128.
  Proof.
    unfold escape_of. intros H.
    destruct (b =? 7); [discriminate|]. destruct (b =? 8); [discriminate|]. destruct (b =? 9); [discriminate|].
    destruct (b =? 10); [discriminate|]. destruct (b =? 13); [discriminate|]. destruct (b =? 34); [discriminate|].
    destruct (b =? 92); [discriminate|]. destruct ((b <? 32) || (b =? 127))%bool eqn:E; [|discriminate].
    inversion H; subst. lia.
  Qed.
  Lemma esc_r6rs_ascii b e : escape_of b = Some e -> all_ascii (flatten (write_r6rs_char_escape e)).
  Proof.
    intros H. destruct e as [| | | | | | |c]; cbn; try ascii_lit. pose proof (escape_of_ctrl b c H) as Hc.
    repeat (constructor; [first [lia | apply hex_upper_ascii; lia]|]). constructor.
  Qed.
  Lemma esc_elisp_ascii b e : escape_of b = Some e -> all_ascii (flatten (write_elisp_char_escape e)).
  Proof.
    intros H. destruct e as [| | | | | | |c]; cbn; try ascii_lit. pose proof (escape_of_ctrl b c H) as Hc.
    repeat (constructor; [first [lia | apply hex_upper_ascii; lia]|]). constructor.
  Qed.

  Lemma utf8_default : utf8_fmt (default_fmt ryu).
  Proof.
    constructor; cbn [default_fmt write_nil write_null write_bool write_number write_char begin_string end_string
                      write_string_fragment write_char_escape write_symbol write_keyword write_bytes begin_list end_list
                      begin_seq_element end_seq_element begin_vector end_vector write_dot]; intros;
      try (apply U_wall_ascii; ascii_lit); try apply U_nil; eauto using U_number, U_scheme_char, esc_r6rs_ascii, U_wall_seqs.
    - destruct b; apply U_wall_ascii; ascii_lit.
    - apply U_app; [apply U_wall_ascii; ascii_lit|apply U_wall_seqs; assumption].
    - apply U_app; [destruct (d_begin_vector VByte) eqn:E; unfold d_begin_vector in E; inversion E; apply U_wall_ascii; ascii_lit|].
      apply U_app; [apply U_octets|apply U_wall_ascii; ascii_lit].
    - destruct b; cbn [d_begin_seq_element]; [apply U_nil|apply U_wall_ascii; ascii_lit].
    - destruct k; apply U_wall_ascii; ascii_lit.
  Qed.

  Lemma utf8_custom po : utf8_fmt (custom_fmt ryu po).
  Proof.
    constructor; cbn [custom_fmt write_nil write_null write_bool write_number write_char begin_string end_string
                      write_string_fragment write_char_escape write_symbol write_keyword write_bytes begin_list end_list
                      begin_seq_element end_seq_element begin_vector end_vector write_dot]; intros;
      try (apply U_wall_ascii; ascii_lit); try apply U_nil; auto using U_number, U_wall_seqs.
    - unfold c_write_nil, c_write_bool. destruct (po_nil po); try (apply U_wall_ascii; ascii_lit).
      destruct (po_bool po); apply U_wall_ascii; ascii_lit.
    - unfold c_write_bool. destruct (po_bool po); destruct b; apply U_wall_ascii; ascii_lit.
    - destruct (po_char po); [apply U_scheme_char|apply U_elisp_char].
    - destruct (po_string po); [eapply esc_r6rs_ascii|eapply esc_elisp_ascii]; eassumption.
    - unfold c_write_keyword. destruct (po_keyword po); apply U_app;
        first [apply U_wall_seqs; assumption | apply U_wall_ascii; ascii_lit].
    - unfold c_write_bytes. destruct (po_bytes po); repeat apply U_app;
        first [apply U_octets | apply U_elisp_octets | apply U_wall_ascii; ascii_lit].
    - destruct b; cbn [d_begin_seq_element]; [apply U_nil|apply U_wall_ascii; ascii_lit].
    - unfold c_begin_vector. destruct (po_vector po); try destruct k; try destruct (po_bytes po); apply U_wall_ascii; ascii_lit.
    - unfold c_end_vector. destruct (po_vector po); apply U_wall_ascii; ascii_lit.
  Qed.

  Fixpoint strs_valid (v : value) : Prop :=
    match v with
    | String s | Symbol s | Keyword s => utf8_valid s = true
    | Cons a d => strs_valid a /\ strs_valid d
    | Vector l => (fix all (l : list value) : Prop := match l with [] => True | x :: l' => strs_valid x /\ all l' end) l
    | _ => True
    end.

  Section Fixed.
    Variable F : formatter.
    Hypothesis HF : utf8_fmt F.

    Definition escF (b : N) : bytes :=
      match escape_of b with None => [b] | Some e => flatten (write_char_escape F e) end.

    Lemma flatten_esc_gen frag s : flatten (esc_contents F frag s) = rev frag ++ flat_map escF s.
    Proof. exact (flatten_esc_any F frag s (u_frag F HF)). Qed.

    Lemma escape_of_high b : 128 <= b -> escape_of b = None.
    Proof.
      intros H. unfold escape_of.
      replace (b =? 7) with false by lia. replace (b =? 8) with false by lia. replace (b =? 9) with false by lia.
      replace (b =? 10) with false by lia. replace (b =? 13) with false by lia. replace (b =? 34) with false by lia.
      replace (b =? 92) with false by lia. replace ((b <? 32) || (b =? 127))%bool with false by lia. reflexivity.
    Qed.

    Lemma U_string s : seqs s -> U (format_escaped_str F s).
    Proof.
      intros Hs. unfold format_escaped_str. apply U_app; [apply (u_bstr F HF)|]. apply U_app; [|apply (u_estr F HF)].
      unfold U. rewrite flatten_esc_gen. cbn [rev app]. apply seqs_flat_map; [| |exact Hs].
      - intros b Hb. unfold escF. destruct (escape_of b) eqn:Ee; [apply (u_esc F HF b _ Ee)|repeat constructor; exact Hb].
      - intros b Hb. unfold escF. now rewrite (escape_of_high b Hb).
    Qed.

    Lemma U_atom v : strs_valid v -> U (print_atom F v).
    Proof.
      destruct v; cbn [print_atom strs_valid]; intros H; try apply U_nil;
        first [apply (u_nil F HF) | apply (u_null F HF) | apply (u_bool F HF) | apply (u_number F HF) | apply (u_char F HF)
              | apply (u_bytes F HF) | apply U_string; apply valid_iff_seqs; exact H
              | apply (u_sym F HF); apply valid_iff_seqs; exact H | apply (u_kw F HF); apply valid_iff_seqs; exact H].
    Qed.

    Lemma strs_valid_elems l : strs_valid (Vector l) -> Forall strs_valid l.
    Proof. cbn [strs_valid]. induction l as [|x l IH]; intros H; constructor; [apply H|apply IH, H]. Qed.

    Lemma U_print v : strs_valid v -> U (print F v).
    Proof.
      apply (print_closed U U_nil U_app F (u_blist F HF) (u_elist F HF) (u_bse F HF) (u_ese F HF)
               (u_bvec F HF) (u_evec F HF) (u_dot F HF) strs_valid); auto using U_atom, strs_valid_elems.
    Qed.
  End Fixed.

  Theorem print_custom_utf8 po v : strs_valid v -> utf8_valid (print_custom ryu po v) = true.
  Proof. intros H. apply valid_iff_seqs. apply (U_print (custom_fmt ryu po) (utf8_custom po) v H). Qed.
  Theorem print0_utf8 v : strs_valid v -> utf8_valid (print0 ryu v) = true.
  Proof. intros H. apply valid_iff_seqs. apply (U_print (default_fmt ryu) utf8_default v H). Qed.
End Utf8Print.
