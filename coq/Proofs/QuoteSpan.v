(* C11: for a quote shorthand the head's span covers just the shorthand
   characters. Whenever the datum parser finds, after trivia, one of ' ` , on
   the input, the datum it returns is the quotation built by Datum::quotation
   and the span of its head - the symbol quote / quasiquote / unquote /
   unquote-splicing - starts where the shorthand starts and ends right after
   its one or two characters (two for ,@), for every option set, source and
   whatever is quoted. *)
From Coq Require Import SpecFloat Lia ZifyBool ZifyNat ZifyN.
Require Import Base Value Float PrintOptions ParseOptions Utf8 Reader Scan Num NumberOps Parser.
Require Import RelFramework PositionProofs SpanProofs FuelProofs.

Definition qtext (name : bytes) : bytes :=
  if beq_bytes name (s2b "quote") then [39]
  else if beq_bytes name (s2b "quasiquote") then [96]
  else if beq_bytes name (s2b "unquote") then [44]
  else [44; 64].

Section QuoteSpan.
  Variable ro : parse_options.
  Variable alpha : N -> bool.
  Variable fast : bool.
  Variable std_parse : N -> Z -> f64.
  Local Notation ptok := (parse_token ro alpha fast std_parse).
  Local Notation nd := (next_datum ro alpha fast std_parse).

  Lemma discard_position b r : at_byte b r -> r_position (r_discard r) = advance (rline r) (rcol r) b.
  Proof.
    intros [Hp [l Hl]]. unfold r_discard. rewrite Hp, Hl. unfold r_position, consume.
    destruct (rk r); destruct (advance (rline r) (rcol r) b); reflexivity.
  Qed.

  Lemma peek_position_same r x r1 : r_peek r = (x, r1) -> r_position r1 = r_position r.
  Proof.
    unfold r_peek. destruct (rpending r).
    - destruct (rinput r) as [|[c| |y] l]; intros E; inversion E; reflexivity.
    - destruct (skip_intr (rinput r)) as [|[c| |y] l]; intros E; inversion E; reflexivity.
  Qed.

  Lemma quote_token f b r tok r' : at_byte b r -> b = 39 \/ b = 96 \/ b = 44 -> ptok f b r = (Ok tok, r') ->
    exists name, tok = TQuotation name /\ hd 0 (qtext name) = b /\ r_position r' = pos_from (r_position r) (qtext name).
  Proof.
    intros Hb Hq. pose proof (discard_position b r Hb) as Hd. destruct Hq as [->|[->| ->]].
    - intros E. change (ptok f 39 r) with (Ok (TQuotation (s2b "quote")), r_discard r) in E. inversion E; subst.
      exists (s2b "quote"). split; [reflexivity|]. split; [reflexivity|]. exact Hd.
    - intros E. change (ptok f 96 r) with (Ok (TQuotation (s2b "quasiquote")), r_discard r) in E. inversion E; subst.
      exists (s2b "quasiquote"). split; [reflexivity|]. split; [reflexivity|]. exact Hd.
    - unfold Parser.parse_token. cbn - [peek_or_null]. unfold bind at 1. unfold eat_char. cbn [fst snd]. unfold bind at 1.
      pose proof (peek_cases (r_discard r)) as Hc. unfold peek_or_null, bind, peek, ret.
      destruct (r_peek (r_discard r)) as [[[nx|]|e] r1] eqn:Ep; [| |discriminate].
      + pose proof (peek_position_same _ _ _ Ep) as Hpos. destruct (nx =? 64) eqn:E64.
        * apply N.eqb_eq in E64. subst nx. destruct Hc as [Hb1 _]. unfold bind, eat_char. cbn [fst snd]. intros E. inversion E; subst.
          exists (s2b "unquote-splicing"). split; [reflexivity|]. split; [reflexivity|].
          rewrite (discard_position 64 r1 Hb1). change (qtext (s2b "unquote-splicing")) with [44; 64].
          unfold pos_from, adv. cbn [fold_left]. change (fst (r_position r)) with (rline r). change (snd (r_position r)) with (rcol r).
          rewrite <- Hd, <- Hpos. unfold r_position. cbn [fst snd]. reflexivity.
        * intros E. inversion E; subst. exists (s2b "unquote"). split; [reflexivity|]. split; [reflexivity|]. rewrite Hpos. exact Hd.
      + pose proof (peek_position_same _ _ _ Ep) as Hpos. change (0 =? 64) with false. cbv iota. intros E. inversion E; subst.
        exists (s2b "unquote"). split; [reflexivity|]. split; [reflexivity|]. rewrite Hpos. exact Hd.
  Qed.

  Theorem quote_head_span f s b r1 dd s' : parse_whitespace f (rd s) = (Ok (Some b), r1) -> b = 39 \/ b = 96 \/ b = 44 ->
    nd (S f) s = (POk (Some dd), s') ->
    exists name quoted, dd = quotation_datum name quoted (mk_span (r_position r1) (pos_from (r_position r1) (qtext name))) /\ hd 0 (qtext name) = b.
  Proof.
    intros Ew Hq. cbn [Parser.next_datum]. rewrite pbind_unfold. unfold liftR at 1. rewrite Ew.
    pose proof (ws_at_byte f (rd s)) as Hb. rewrite Ew in Hb.
    rewrite pbind_unfold. unfold liftR at 1, position. cbn [rd depth fst snd].
    rewrite pbind_unfold. unfold liftR at 1. cbn [rd depth].
    destruct (ptok f b r1) as [[tok|e] r2] eqn:Et; [|discriminate].
    destruct (quote_token f b r1 tok r2 Hb Hq Et) as (name & -> & Hh & Hpos). cbv zeta.
    rewrite pbind_unfold. unfold liftR at 1, position. cbn [rd depth fst snd]. rewrite Hpos.
    intros E. revert E. rewrite pbind_unfold.
    destruct (enter_nesting _) as [[u|e] s2]; [|discriminate]. rewrite pbind_unfold.
    destruct (attempt _ s2) as [[rr|e] s3]; [|discriminate]. rewrite pbind_unfold.
    destruct (inc_depth s3) as [[u2|e] s4]; [|discriminate]. rewrite pbind_unfold.
    destruct rr as [o|e]; cbn [lift pret pfail]; [|discriminate].
    destruct o as [quoted|]; [|unfold liftR, peek_error; destruct (r_peek_position (rd s4)); discriminate].
    unfold pret. intros E. inversion E; subst. exists name, quoted. split; [reflexivity|first [exact Hh|reflexivity]].
  Qed.
End QuoteSpan.
