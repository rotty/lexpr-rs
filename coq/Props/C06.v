(* C06 -- read errors surface; the three sources agree (proved part).
   For every option set, input event stream (bytes, Interrupted results, hard
   failures in any order) and fuel: a hard failure met by the reader is
   returned as that I/O error and is never end of input; Interrupted results
   are retried without effect, and interleaved anywhere in a stream they are
   invisible to the whole parser - same values, same errors at the same
   positions, same end (C06_interrupts_invisible, by a two-run traversal of
   the parser); reader-level code (scanners, numbers, tokens)
   that consumed a failure returns exactly that I/O error; and no parser call
   that consumed a failure returns a value. Agreement of &str, &[u8] and
   io::Read input is proved on the printed text of every value covered by
   C01; for arbitrary input (error cases included) and for the split of the
   stream into read calls it is decided by the correspondence and the oracle
   only (theorems.json). *)
From Coq Require Import SpecFloat.
Require Import Base Value Float PrintOptions Printer ParseOptions Utf8 Reader Scan Num NumberOps Parser.
Require Import RelFramework IoProofs RoundtripProofs TextProofs SimFramework InterruptProofs CrossProofs SourcesAgree StrSliceProofs Utf8StrProofs ValidTextProofs.
Require IoFailProofs.
Local Open Scope nat_scope.

Theorem C06_failure_is_error : forall r e l, rpending r = false -> skip_intr (rinput r) = EFail e :: l ->
  (exists r', r_next r = (Err (EIo e), r')) /\ (exists r', r_peek r = (Err (EIo e), r')).
Proof. intros r e l Hp Hs. split; [eapply next_fail|eapply peek_fail]; eassumption. Qed.
Print Assumptions C06_failure_is_error.

Theorem C06_eof_is_real : forall r r', rpending r = false -> r_next r = (Ok None, r') -> skip_intr (rinput r) = [].
Proof. exact next_eof_real. Qed.
Print Assumptions C06_eof_is_real.

Theorem C06_interrupted_retried : forall r, rpending r = false ->
  r_next {| rk := rk r; rline := rline r; rcol := rcol r; rpending := false; rinput := EInterrupted :: rinput r |} = r_next r.
Proof. exact interrupted_invisible_next. Qed.
Print Assumptions C06_interrupted_retried.

Theorem C06_token_io_error : forall ro alpha fast std_parse fuel b r,
  let '(x, r') := parse_token ro alpha fast std_parse fuel b r in
  nf r' <= nf r /\ (nf r' < nf r -> exists io, x = Err (EIo io)).
Proof. exact token_io_error. Qed.
Print Assumptions C06_token_io_error.

Theorem C06_no_swallow_value : forall ro alpha fast std_parse fuel s,
  let '(x, s') := next_value ro alpha fast std_parse fuel s in
  nf (rd s') <= nf (rd s) /\ (nf (rd s') < nf (rd s) -> exists e, x = PErr e).
Proof. exact next_value_no_swallow. Qed.
Print Assumptions C06_no_swallow_value.

Theorem C06_no_swallow_datum : forall ro alpha fast std_parse fuel s,
  let '(x, s') := next_datum ro alpha fast std_parse fuel s in
  nf (rd s') <= nf (rd s) /\ (nf (rd s') < nf (rd s) -> exists e, x = PErr e).
Proof. exact next_datum_no_swallow. Qed.
Print Assumptions C06_no_swallow_datum.

(* the three sources give the same result on everything C01 covers *)
Theorem C06_sources_agree_partial : forall ryu alpha fast std_parse k1 k2 v,
  rt_ok alpha v -> rdepth v <= 127 ->
  from_trait default_ro alpha fast std_parse k1 (bytes_events (print0 ryu v)) =
  from_trait default_ro alpha fast std_parse k2 (bytes_events (print0 ryu v)).
Proof.
  intros ryu alpha fast std_parse k1 k2 v Hok Hd. rewrite print0_is_txt.
  rewrite (roundtrip_from_trait ryu alpha fast std_parse k1 v Hok Hd).
  rewrite (roundtrip_from_trait ryu alpha fast std_parse k2 v Hok Hd). reflexivity.
Qed.
Print Assumptions C06_sources_agree_partial.

(* A byte slice and an io::Read stream of the same bytes are read alike: for
   every option set, oracle, build and byte string - well-formed or not, valid
   UTF-8 or not - from_slice and from_reader return the same value, or errors
   with the same code (hence the same category and kind; the position attached
   to an error may differ when the error is raised on a byte that was read but
   not peeked). SliceRead and IoRead differ in their symbol and string scanners
   (bulk scans over the slice against a byte-at-a-time loop), in discard (the
   stream only drops a byte it has peeked) and in peek_position; the proof runs
   every function of the parser on both readers side by side, with discards
   justified by the pending byte and the scanner pairs related by induction on
   the input. *)
Theorem C06_slice_stream_agree : forall ro alpha fast std_parse (s : bytes),
  match from_trait ro alpha fast std_parse SrcSlice (bytes_events s), from_trait ro alpha fast std_parse SrcIo (bytes_events s) with
  | POk a, POk b => a = b
  | PErr (XErr (ESyntax c1 _ _)), PErr (XErr (ESyntax c2 _ _)) => c1 = c2
  | PErr (XErr (EIo a)), PErr (XErr (EIo b)) => a = b
  | _, _ => False
  end.
Proof. exact slice_stream_agree. Qed.
Print Assumptions C06_slice_stream_agree.

(* The same at every call: from a slice reader and a stream reader standing at
   the same place of the same bytes, next_value returns the same item (or errors
   with the same code) and leaves the readers at the same place again - unless
   the stream run exhausts the fuel it was given - so the statement chains over
   iterations and call histories. *)
Theorem C06_slice_stream_every_call : forall ro alpha fast std_parse fuel s1 s2, prel s1 s2 ->
  fst (next_value ro alpha fast std_parse fuel s2) = PErr (XErr EFuel) \/
  (rpres eq (fst (next_value ro alpha fast std_parse fuel s1)) (fst (next_value ro alpha fast std_parse fuel s2)) /\
   prel (snd (next_value ro alpha fast std_parse fuel s1)) (snd (next_value ro alpha fast std_parse fuel s2))).
Proof. intros ro alpha fast std_parse fuel. exact (proj1 (cross_values ro alpha fast std_parse fuel)). Qed.
Print Assumptions C06_slice_stream_every_call.

(* ... and a stream that interleaves Interrupted results anywhere among those
   bytes (strip removes them) still reads like the slice: the interrupts are
   invisible (C06_interrupts_invisible), the larger step budget the longer
   event list gets is irrelevant (C03_fuel_irrelevant), and the bytes read
   alike (C06_slice_stream_agree). *)
Theorem C06_slice_stream_interrupts_agree : forall ro alpha fast std_parse (s : bytes) (inp : list event),
  strip inp = bytes_events s ->
  match from_trait ro alpha fast std_parse SrcSlice (bytes_events s), from_trait ro alpha fast std_parse SrcIo inp with
  | POk a, POk b => a = b
  | PErr (XErr (ESyntax c1 _ _)), PErr (XErr (ESyntax c2 _ _)) => c1 = c2
  | PErr (XErr (EIo a)), PErr (XErr (EIo b)) => a = b
  | _, _ => False
  end.
Proof. exact slice_stream_interrupts_agree. Qed.
Print Assumptions C06_slice_stream_interrupts_agree.

Example C06_slice_stream_nonvacuous :
  let bad : bytes := [40; 97; 32; 255; 41]%N in       (* "(a \xFF)": not UTF-8 *)
  from_trait default_ro (fun _ => true) true dec_to_f64 SrcSlice (bytes_events bad) =
    PErr (XErr (ESyntax InvalidUnicodeCodePoint 1 4)) /\
  from_trait default_ro (fun _ => true) true dec_to_f64 SrcIo (bytes_events bad) =
    PErr (XErr (ESyntax InvalidUnicodeCodePoint 1 4)) /\
  prel (init_state SrcSlice (bytes_events bad)) (init_state SrcIo (bytes_events bad)).
Proof. cbv zeta. split; [vm_compute; reflexivity|]. split; [vm_compute; reflexivity|]. apply init_prel. Qed.

(* a failure in the middle of a token, of a list, after an interrupt *)
(* Interrupted results anywhere in the stream: strip removes them; two streams
   with the same strip are read alike by every call (the relation iprel is kept,
   so the statement chains over call histories), by a whole iteration and by
   the single-shot entry point. The step budget is the same on both sides;
   from_trait k inp is from_trait_with (fuel_for inp) k inp. *)
Theorem C06_interrupts_invisible_call : forall ro alpha fast std_parse fuel s1 s2, iprel s1 s2 ->
  fst (next_value ro alpha fast std_parse fuel s1) = fst (next_value ro alpha fast std_parse fuel s2) /\
  iprel (snd (next_value ro alpha fast std_parse fuel s1)) (snd (next_value ro alpha fast std_parse fuel s2)).
Proof. exact next_value_interrupts. Qed.
Print Assumptions C06_interrupts_invisible_call.

Theorem C06_interrupts_invisible_datum_call : forall ro alpha fast std_parse fuel s1 s2, iprel s1 s2 ->
  fst (next_datum ro alpha fast std_parse fuel s1) = fst (next_datum ro alpha fast std_parse fuel s2) /\
  iprel (snd (next_datum ro alpha fast std_parse fuel s1)) (snd (next_datum ro alpha fast std_parse fuel s2)).
Proof. exact next_datum_interrupts. Qed.
Print Assumptions C06_interrupts_invisible_datum_call.

Theorem C06_interrupts_invisible : forall ro alpha fast std_parse fuel inp1 inp2, strip inp1 = strip inp2 ->
  from_trait_with ro alpha fast std_parse fuel SrcIo inp1 = from_trait_with ro alpha fast std_parse fuel SrcIo inp2 /\
  forall n, iterate_values ro alpha fast std_parse fuel n (init_state SrcIo inp1) =
            iterate_values ro alpha fast std_parse fuel n (init_state SrcIo inp2).
Proof.
  intros ro alpha fast std_parse fuel inp1 inp2 H. split; [apply from_trait_interrupts; exact H|].
  intros n. apply iterate_values_interrupts. apply init_related. exact H.
Qed.
Print Assumptions C06_interrupts_invisible.

Example C06_interrupts_nonvacuous :
  let a := [EInterrupted; EByte 40; EInterrupted; EInterrupted; EByte 97; EByte 32; EInterrupted; EByte 34; EByte 120; EInterrupted; EByte 34; EByte 41; EInterrupted] in
  let b := bytes_events (s2b "(a ""x"")") in
  strip a = strip b /\
  from_trait default_ro (fun _ => true) true dec_to_f64 SrcIo a = POk (vlist [Symbol (s2b "a"); String (s2b "x")]) /\
  from_trait default_ro (fun _ => true) true dec_to_f64 SrcIo b = POk (vlist [Symbol (s2b "a"); String (s2b "x")]).
Proof. cbv zeta. split; [reflexivity|]. split; vm_compute; reflexivity. Qed.

Example C06_nonvacuous :
  let run inp := from_trait default_ro (fun _ => true) true dec_to_f64 SrcIo inp in
  run [EByte 40%N; EByte 97%N; EFail 5%N; EByte 41%N] = PErr (XErr (EIo 5%N)) /\
  run [EByte 40%N; EInterrupted; EByte 97%N; EInterrupted; EInterrupted; EByte 41%N] = POk (vlist [Symbol [97%N]]) /\
  run [EByte 34%N; EByte 97%N; EInterrupted; EFail 7%N] = PErr (XErr (EIo 7%N)) /\
  run [EByte 49%N; EByte 50%N; EFail 9%N] = PErr (XErr (EIo 9%N)).
Proof. vm_compute. repeat split; reflexivity. Qed.

(* A &str against the byte slice of the same bytes, for ANY bytes and events:
   the two readers run the same code except that the slice reader validates the
   UTF-8 of scanned symbols and strings; so either the slice parse answers
   InvalidUnicodeCodePoint, or the str parse returns exactly what the slice
   parse returns - value, error code, position. *)
Theorem C06_str_slice_agree : forall ro alpha fast std_parse (inp : list event),
  (exists l c, from_trait ro alpha fast std_parse SrcSlice inp = PErr (XErr (ESyntax InvalidUnicodeCodePoint l c))) \/
  from_trait ro alpha fast std_parse SrcStr inp = from_trait ro alpha fast std_parse SrcSlice inp.
Proof. exact str_slice_agree. Qed.
Print Assumptions C06_str_slice_agree.

Theorem C06_str_slice_agree_datum : forall ro alpha fast std_parse (inp : list event),
  (exists l c, datum_from_trait ro alpha fast std_parse SrcSlice inp = PErr (XErr (ESyntax InvalidUnicodeCodePoint l c))) \/
  datum_from_trait ro alpha fast std_parse SrcStr inp = datum_from_trait ro alpha fast std_parse SrcSlice inp.
Proof. exact str_slice_agree_datum. Qed.
Print Assumptions C06_str_slice_agree_datum.

(* all three sources on plain bytes *)
Theorem C06_three_sources_agree : forall ro alpha fast std_parse (s : bytes),
  (exists l c, from_trait ro alpha fast std_parse SrcSlice (bytes_events s) = PErr (XErr (ESyntax InvalidUnicodeCodePoint l c))) \/
  (from_trait ro alpha fast std_parse SrcStr (bytes_events s) = from_trait ro alpha fast std_parse SrcSlice (bytes_events s) /\
   match from_trait ro alpha fast std_parse SrcSlice (bytes_events s), from_trait ro alpha fast std_parse SrcIo (bytes_events s) with
   | POk a, POk b => a = b
   | PErr (XErr (ESyntax c1 _ _)), PErr (XErr (ESyntax c2 _ _)) => c1 = c2
   | PErr (XErr (EIo a)), PErr (XErr (EIo b)) => a = b
   | _, _ => False
   end).
Proof.
  intros ro alpha fast std_parse s. destruct (str_slice_agree ro alpha fast std_parse (bytes_events s)) as [R|H]; [left; exact R|].
  right. split; [exact H|]. apply slice_stream_agree.
Qed.
Print Assumptions C06_three_sources_agree.

(* both cases occur: a non-ASCII text read alike, an error alike at the same
   position, and ill-formed bytes on which the slice answers the rejection
   (a str can never hold them) *)
Example C06_str_slice_nonvacuous :
  let W : bytes := (s2b "(" ++ [206; 187] ++ s2b "x #:k ""a\x3bb;" ++ [240; 159; 146; 150] ++ s2b "\n"")")%N in
  let E : bytes := (s2b "(a " ++ [206; 187] ++ s2b " . )")%N in
  let bad : bytes := [40; 97; 32; 255; 41]%N in
  from_trait default_ro (fun _ => true) true dec_to_f64 SrcStr (bytes_events W) =
    POk (vlist [Symbol [206; 187; 120]%N; Keyword (s2b "k"); String ([97; 206; 187; 240; 159; 146; 150; 10]%N)]) /\
  from_trait default_ro (fun _ => true) true dec_to_f64 SrcSlice (bytes_events W) =
    POk (vlist [Symbol [206; 187; 120]%N; Keyword (s2b "k"); String ([97; 206; 187; 240; 159; 146; 150; 10]%N)]) /\
  from_trait default_ro (fun _ => true) true dec_to_f64 SrcStr (bytes_events E) =
    from_trait default_ro (fun _ => true) true dec_to_f64 SrcSlice (bytes_events E) /\
  (exists c l cl, from_trait default_ro (fun _ => true) true dec_to_f64 SrcSlice (bytes_events E) = PErr (XErr (ESyntax c l cl))) /\
  from_trait default_ro (fun _ => true) true dec_to_f64 SrcSlice (bytes_events bad) =
    PErr (XErr (ESyntax InvalidUnicodeCodePoint 1 4)).
Proof.
  cbv zeta. split; [vm_compute; reflexivity|]. split; [vm_compute; reflexivity|]. split; [vm_compute; reflexivity|].
  split; [|vm_compute; reflexivity]. eexists; eexists; eexists. vm_compute. reflexivity.
Qed.

(* On a well-formed UTF-8 text - every str is one - the exception never arises:
   from_str and from_slice return exactly the same result, value or error with
   its position, for every option set and build, through the value API and the
   datum API. The str reader is shown to stand inside the text at a character
   boundary wherever a symbol or string is scanned (the reader-state logic of
   C17), so the bytes handed to the validation that SliceRead performs and
   StrRead skips are always well-formed (coq/Proofs/ValidTextProofs.v). *)
Theorem C06_str_slice_agree_on_text : forall W, utf8_valid W = true -> forall ro alpha fast std_parse,
  from_trait ro alpha fast std_parse SrcStr (bytes_events W) = from_trait ro alpha fast std_parse SrcSlice (bytes_events W) /\
  datum_from_trait ro alpha fast std_parse SrcStr (bytes_events W) = datum_from_trait ro alpha fast std_parse SrcSlice (bytes_events W).
Proof. exact valid_text_agree. Qed.
Print Assumptions C06_str_slice_agree_on_text.

(* ... and at every call: a str parser standing anywhere inside such a text
   (okr W) and a slice parser at the same place (sprel) return the same item
   and stay at the same place, so the statement chains over iterations *)
Theorem C06_str_slice_every_call_on_text : forall W, utf8_valid W = true -> forall ro alpha fast std_parse fuel s1 s2,
  sprel s1 s2 -> okr W (rd s1) ->
  fst (next_value ro alpha fast std_parse fuel s1) = fst (next_value ro alpha fast std_parse fuel s2) /\
  sprel (snd (next_value ro alpha fast std_parse fuel s1)) (snd (next_value ro alpha fast std_parse fuel s2)).
Proof.
  intros W HW ro alpha fast std_parse fuel s1 s2 Hs Ho.
  exact (proj1 (twin_values W HW ro alpha fast std_parse fuel) s1 s2 Hs Ho I).
Qed.
Print Assumptions C06_str_slice_every_call_on_text.

(* the three sources on a well-formed text *)
Theorem C06_three_sources_agree_on_text : forall W, utf8_valid W = true -> forall ro alpha fast std_parse,
  from_trait ro alpha fast std_parse SrcStr (bytes_events W) = from_trait ro alpha fast std_parse SrcSlice (bytes_events W) /\
  match from_trait ro alpha fast std_parse SrcSlice (bytes_events W), from_trait ro alpha fast std_parse SrcIo (bytes_events W) with
  | POk a, POk b => a = b
  | PErr (XErr (ESyntax c1 _ _)), PErr (XErr (ESyntax c2 _ _)) => c1 = c2
  | PErr (XErr (EIo a)), PErr (XErr (EIo b)) => a = b
  | _, _ => False
  end.
Proof.
  intros W HW ro alpha fast std_parse. split; [exact (proj1 (valid_text_agree W HW ro alpha fast std_parse))|apply slice_stream_agree].
Qed.
Print Assumptions C06_three_sources_agree_on_text.

(* The error is the I/O error whenever the delivered prefix does not determine
   the outcome. A stream delivers the events pre (bytes, Interrupted results,
   earlier failures) and then fails with e, whatever would follow. Then
   from_reader returns that I/O error - or it returns exactly what it returns
   on pre followed by ANY other continuation: bytes, the end of the input,
   another failure. In the second case the prefix alone determines the result
   (a syntax error already met, or a complete datum followed by a failure that
   only the trailing-input check could meet... which it reports: that is the
   first case). By reading the two streams side by side (IoFailProofs.v): every
   function of the parser either ends in the I/O error on the failing stream
   or returns the same on both with the readers still inside the prefix; an
   error raised inside a nested form wins over whatever the cleanup reads. *)
Theorem C06_io_error_or_determined : forall ro alpha fast std_parse (pre post cont : list event) (e : N),
  from_trait ro alpha fast std_parse SrcIo (pre ++ EFail e :: post) = PErr (XErr (EIo e)) \/
  from_trait ro alpha fast std_parse SrcIo (pre ++ cont) = from_trait ro alpha fast std_parse SrcIo (pre ++ EFail e :: post).
Proof. exact io_error_or_determined. Qed.
Print Assumptions C06_io_error_or_determined.

Theorem C06_io_error_or_determined_datum : forall ro alpha fast std_parse (pre post cont : list event) (e : N),
  datum_from_trait ro alpha fast std_parse SrcIo (pre ++ EFail e :: post) = PErr (XErr (EIo e)) \/
  datum_from_trait ro alpha fast std_parse SrcIo (pre ++ cont) = datum_from_trait ro alpha fast std_parse SrcIo (pre ++ EFail e :: post).
Proof. exact io_error_or_determined_datum. Qed.
Print Assumptions C06_io_error_or_determined_datum.

(* both cases occur: an open list, a complete datum, a token cut short - the
   I/O error; a stray closer or a bad token before the failure - the syntax
   error the prefix already determines, with any continuation *)
Example C06_io_error_or_determined_nonvacuous :
  let run inp := from_trait default_ro (fun _ => true) true dec_to_f64 SrcIo inp in
  run (bytes_events (s2b "(a ") ++ [EFail 5%N]) = PErr (XErr (EIo 5%N)) /\
  run (bytes_events (s2b "12") ++ [EFail 6%N]) = PErr (XErr (EIo 6%N)) /\
  run (bytes_events (s2b "(a) ") ++ [EFail 7%N; EByte 41%N]) = PErr (XErr (EIo 7%N)) /\
  (exists l c, run (bytes_events (s2b "(a #z ") ++ [EFail 8%N]) = PErr (XErr (ESyntax ExpectedSomeIdent l c)) /\
               run (bytes_events (s2b "(a #z ") ++ bytes_events (s2b "b)")) = PErr (XErr (ESyntax ExpectedSomeIdent l c)) /\
               run (bytes_events (s2b "(a #z ")) = PErr (XErr (ESyntax ExpectedSomeIdent l c))).
Proof.
  cbv zeta. split; [vm_compute; reflexivity|]. split; [vm_compute; reflexivity|]. split; [vm_compute; reflexivity|].
  eexists; eexists. split; [vm_compute; reflexivity|]. split; vm_compute; reflexivity.
Qed.

(* ... and at every call: a parser on the failing stream (s2) and a parser on
   the same prefix with any other continuation (s1), standing at the same place
   inside the prefix (IoFailProofs.sprel), make the same call. Then the failing
   stream's call ends in the I/O error e (or a model artefact: fuel, panic -
   excluded for whole parses by C03), or the other runs out of fuel, or both
   return the same item with the same nesting budget and - when it is a value -
   still stand side by side. So the statement chains over iterations. *)
Theorem C06_io_error_or_determined_every_call : forall e post cont ro alpha fast std_parse fuel s1 s2,
  IoFailProofs.sprel e post cont s1 s2 ->
  IoFailProofs.pesc e (fst (next_value ro alpha fast std_parse fuel s2)) \/
  fst (next_value ro alpha fast std_parse fuel s1) = PErr (XErr EFuel) \/
  (fst (next_value ro alpha fast std_parse fuel s1) = fst (next_value ro alpha fast std_parse fuel s2) /\
   depth (snd (next_value ro alpha fast std_parse fuel s1)) = depth (snd (next_value ro alpha fast std_parse fuel s2)) /\
   (IoFailProofs.is_pok (fst (next_value ro alpha fast std_parse fuel s2)) ->
    IoFailProofs.srel e post cont (rd (snd (next_value ro alpha fast std_parse fuel s1))) (rd (snd (next_value ro alpha fast std_parse fuel s2))))).
Proof.
  intros e post cont ro alpha fast std_parse fuel s1 s2 H.
  exact (proj1 (IoFailProofs.str_values e post cont ro alpha fast std_parse fuel) s1 s2 H).
Qed.
Print Assumptions C06_io_error_or_determined_every_call.
